(* Base/Bytes.v — bytes, big-endian integers, hex text.  Model + its basic lemmas. *)
From Coq Require Export List NArith ZArith Lia Bool.
(* in force wherever this file is imported (everywhere but Gen/Tables.v and the Svi/Modules files): lia knows N, nat
   and bool and, through the hook, / and mod *)
From Coq Require Export ZifyN ZifyNat ZifyBool.
From Coq Require Export Strings.Byte.
Export ListNotations.
Ltac Zify.zify_post_hook ::= Z.div_mod_to_equations.

Definition bytes := list byte.

Definition byte_of_N (n : N) : byte :=
  match Byte.of_N (n mod 256) with Some b => b | None => x00 end.

Lemma to_byte_of_N n : Byte.to_N (byte_of_N n) = (n mod 256)%N.
Proof.
  unfold byte_of_N. 
  destruct (Byte.of_N (n mod 256)) eqn:E; [now apply Byte.to_of_N|].
  apply Byte.of_N_None_iff in E. lia.
Qed.

Lemma to_of_N n : (n < 256)%N -> Byte.to_N (byte_of_N n) = n.
Proof. intros H. rewrite to_byte_of_N. now apply N.mod_small. Qed.

Lemma byte_of_to_N b : byte_of_N (Byte.to_N b) = b.
Proof.
  unfold byte_of_N. pose proof (Byte.to_N_bounded b).
  rewrite N.mod_small by lia. now rewrite Byte.of_to_N.
Qed.

Lemma to_N_lt b : (Byte.to_N b < 256)%N.
Proof. pose proof (Byte.to_N_bounded b). lia. Qed.

Definition byte_eqb (a b : byte) : bool := N.eqb (Byte.to_N a) (Byte.to_N b).

Lemma byte_eqb_eq a b : byte_eqb a b = true <-> a = b.
Proof.
  unfold byte_eqb. rewrite N.eqb_eq. split; [|now intros ->].
  intros H. rewrite <- (byte_of_to_N a), <- (byte_of_to_N b). now rewrite H.
Qed.

Fixpoint bytes_eqb (a b : bytes) : bool :=
  match a, b with
  | [], [] => true
  | x :: a', y :: b' => byte_eqb x y && bytes_eqb a' b'
  | _, _ => false
  end.

Lemma bytes_eqb_eq a b : bytes_eqb a b = true <-> a = b.
Proof.
  revert b; induction a as [|x a IH]; intros [|y b]; simpl; split; try congruence.
  - rewrite andb_true_iff, byte_eqb_eq, IH. now intros [-> ->].
  - intros E; inversion E; subst. rewrite andb_true_iff, byte_eqb_eq, IH. auto.
Qed.

Lemma bytes_eqb_refl a : bytes_eqb a a = true.
Proof. now apply bytes_eqb_eq. Qed.

Fixpoint be (k : nat) (n : N) : bytes :=
  match k with
  | O => []
  | S k' => be k' (n / 256) ++ [byte_of_N n]
  end.

Fixpoint of_be_acc (acc : N) (l : bytes) : N :=
  match l with
  | [] => acc
  | b :: l' => of_be_acc (acc * 256 + Byte.to_N b) l'
  end.
Definition of_be := of_be_acc 0.

Lemma of_be_acc_app acc l1 l2 : of_be_acc acc (l1 ++ l2) = of_be_acc (of_be_acc acc l1) l2.
Proof. revert acc; induction l1 as [|b l IH]; intros; simpl; auto. Qed.

Lemma of_be_acc_shift acc l : of_be_acc acc l = (acc * 256 ^ N.of_nat (length l) + of_be_acc 0 l)%N.
Proof.
  revert acc; induction l as [|b l IH]; intros acc.
  - simpl. lia.
  - cbn [of_be_acc length]. rewrite IH. rewrite (IH (0 * 256 + Byte.to_N b)%N).
    rewrite Nat2N.inj_succ, N.pow_succ_r by lia. lia.
Qed.

Lemma be_length k n : length (be k n) = k.
Proof. revert n; induction k as [|k IH]; intros; simpl; auto. rewrite app_length, IH. simpl. lia. Qed.

Lemma of_be_snoc l b : of_be (l ++ [b]) = (of_be l * 256 + Byte.to_N b)%N.
Proof. unfold of_be. now rewrite of_be_acc_app. Qed.

Lemma of_be_be k n : (n < 256 ^ N.of_nat k)%N -> of_be (be k n) = n.
Proof.
  revert n; induction k as [|k IH]; intros n H; [cbn in *; lia|].
  rewrite Nat2N.inj_succ, N.pow_succ_r' in H.
  cbn [be]. rewrite of_be_snoc, to_byte_of_N, IH; lia.
Qed.

Lemma of_be_bound l : (of_be l < 256 ^ N.of_nat (length l))%N.
Proof.
  induction l as [|b l IH] using rev_ind; [cbn; lia|].
  rewrite of_be_snoc, app_length, Nat.add_1_r, Nat2N.inj_succ, N.pow_succ_r'. pose proof (to_N_lt b). lia.
Qed.

Lemma be_of_be l : be (length l) (of_be l) = l.
Proof.
  induction l as [|b l IH] using rev_ind; [reflexivity|].
  rewrite of_be_snoc, app_length, Nat.add_1_r. cbn [be]. pose proof (to_N_lt b).
  replace ((of_be l * 256 + Byte.to_N b) / 256)%N with (of_be l) by lia.
  rewrite IH. do 2 f_equal. rewrite <- (byte_of_to_N b) at 2. unfold byte_of_N.
  now replace ((of_be l * 256 + Byte.to_N b) mod 256)%N with (Byte.to_N b mod 256)%N by lia.
Qed.

Definition take {A} (k : nat) (b : list A) : option (list A * list A) :=
  if Nat.leb k (length b) then Some (firstn k b, skipn k b) else None.

Lemma take_app {A} k (a r : list A) : length a = k -> take k (a ++ r) = Some (a, r).
Proof.
  intros H. unfold take. rewrite app_length.
  destruct (Nat.leb_spec k (length a + length r)); [|lia].
  subst k. rewrite firstn_app, firstn_all, skipn_app, skipn_all, Nat.sub_diag. simpl.
  now rewrite app_nil_r.
Qed.

Lemma take_spec {A} k (b a r : list A) : take k b = Some (a, r) -> b = a ++ r /\ length a = k.
Proof.
  unfold take. destruct (Nat.leb_spec k (length b)); [|discriminate].
  intros E; inversion E. split; [now rewrite firstn_skipn|].
  now apply firstn_length_le.
Qed.

Lemma take_none {A} k (b : list A) : take k b = None <-> (length b < k)%nat.
Proof. unfold take. destruct (Nat.leb_spec k (length b)); split; first [discriminate | reflexivity | lia]. Qed.

(* hex text (ASCII), used by the dispatcher to render results and oracle queries *)
Definition hex_digit (n : N) : byte :=
  if (n <? 10)%N then byte_of_N (48 + n) else byte_of_N (87 + n).

Definition hex_of_byte (b : byte) : bytes :=
  let v := Byte.to_N b in [hex_digit (v / 16); hex_digit (v mod 16)].

Definition hex (b : bytes) : bytes := flat_map hex_of_byte b.

Definition unhex_digit (c : byte) : option N :=
  let v := Byte.to_N c in
  if (48 <=? v)%N && (v <=? 57)%N then Some (v - 48)%N
  else if (97 <=? v)%N && (v <=? 102)%N then Some (v - 87)%N
  else None.

Fixpoint unhex (s : bytes) : option bytes :=
  match s with
  | [] => Some []
  | a :: b :: r =>
    match unhex_digit a, unhex_digit b, unhex r with
    | Some x, Some y, Some t => Some (byte_of_N (x * 16 + y) :: t)
    | _, _, _ => None
    end
  | _ => None
  end.

(* minimal big-endian representation of n (big.Int.Bytes): [] for 0 *)
Fixpoint be_min_fuel (fuel : nat) (n : N) (acc : bytes) : bytes :=
  match fuel with
  | O => acc
  | S f => if (n =? 0)%N then acc else be_min_fuel f (n / 256) (byte_of_N n :: acc)
  end.
Definition be_min (n : N) : bytes := be_min_fuel (S (N.to_nat (N.log2 n))) n [].

(* N rendered as lower-case hex without leading zeros ("0" for 0) *)
Fixpoint hexnum_fuel (fuel : nat) (n : N) (acc : bytes) : bytes :=
  match fuel with
  | O => acc
  | S f => if (n =? 0)%N then acc else hexnum_fuel f (n / 16) (hex_digit (n mod 16) :: acc)
  end.
Definition hexnum (n : N) : bytes :=
  if (n =? 0)%N then [byte_of_N 48] else hexnum_fuel (S (N.to_nat (N.log2 n))) n [].
Definition hexnumZ (z : Z) : bytes :=
  if (z <? 0)%Z then byte_of_N 45 :: hexnum (Z.to_N (- z)) else hexnum (Z.to_N z).

Lemma of_be_cons b l : (of_be (b :: l) = Byte.to_N b * 256 ^ N.of_nat (length l) + of_be l)%N.
Proof. unfold of_be. cbn [of_be_acc]. rewrite of_be_acc_shift. lia. Qed.

Lemma be_min_fuel_spec f : forall n acc, (n < 256 ^ N.of_nat f ->
  of_be (be_min_fuel f n acc) = n * 256 ^ N.of_nat (length acc) + of_be acc)%N.
Proof.
  induction f as [|f IH]; intros n acc Hn; cbn [be_min_fuel].
  - cbn in Hn. lia.
  - rewrite Nat2N.inj_succ, N.pow_succ_r' in Hn.
    destruct (N.eqb_spec n 0); [lia|].
    rewrite IH, of_be_cons, to_byte_of_N by lia. cbn [length]. rewrite Nat2N.inj_succ, N.pow_succ_r'.
    pose proof (N.div_mod n 256). nia.
Qed.

(* minimal big-endian bytes decode back to the number (big.Int.Bytes / SetBytes) *)
Lemma of_be_be_min n : of_be (be_min n) = n.
Proof.
  unfold be_min. rewrite be_min_fuel_spec.
  -   cbn. lia.
  - destruct (N.eqb_spec n 0); [subst; cbn; lia|].
    pose proof (N.log2_spec n ltac:(lia)) as [_ H].
    eapply N.lt_le_trans; [exact H|].
    rewrite Nat2N.inj_succ.
    replace 256%N with (2 ^ 8)%N by reflexivity. rewrite <- N.pow_mul_r.
    apply N.pow_le_mono_r; lia.
Qed.
