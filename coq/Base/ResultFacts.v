(* Base/ResultFacts.v — how outcomes pass through [bind]: an accepting run read backwards; the two properties of a
   procedure that every [bind] preserves, totality and absence of panics; the order in which fuelled procedures are
   monotone in their fuel. *)
From FDO Require Import Base.Result.

Lemma bind_Ok_inv {A B} (x : outcome A) (f : A -> outcome B) b :
  bind x f = Ok b -> exists a, x = Ok a /\ f a = Ok b.
Proof. destruct x; try discriminate. eauto. Qed.

Lemma bind_total {A B} (x : outcome A) (f : A -> outcome B) :
  total x -> (forall a, x = Ok a -> total (f a)) -> total (bind x f).
Proof. destruct x; cbn; auto. Qed.

Lemma if_total {A} (c : bool) (x y : outcome A) : total x -> total y -> total (if c then x else y).
Proof. now destruct c. Qed.

Lemma bind_no_panic {A B} (x : outcome A) (f : A -> outcome B) p :
  x <> Panic p -> (forall a, f a <> Panic p) -> bind x f <> Panic p.
Proof. intros Hx Hf. destruct x; cbn; congruence. Qed.

Lemma total_no_panic {A} (x : outcome A) p : total x -> x <> Panic p.
Proof. destruct x; cbn; congruence. Qed.

(* the head symbol of an application *)
Ltac head_of t := lazymatch t with ?f _ => head_of f | _ => t end.

(* [x <> Panic p] for a procedure unfolded to [Ok], [Err], [if], [match] and [bind]: the head of the goal decides the step,
   so every branch is visited once.  The leaves are results other than [Panic] and calls of other procedures, whose own
   theorems are the hints of the database (each file exports those of its procedures once their section is closed); a
   leaf that is neither (a panic that a hypothesis has to rule out) is left. *)
Create HintDb no_panic discriminated.
Ltac no_panic :=
  lazymatch goal with
  | |- bind _ _ <> _ => apply bind_no_panic; no_panic
  | |- forall _, _ => intro; no_panic
  | |- match ?x with _ => _ end <> _ => destruct x; no_panic
  | |- ?x <> _ => let c := head_of x in tryif is_constructor c then try discriminate else auto with no_panic
  end.

(* the boolean tests the procedures make, as the propositions they decide; a file whose procedure makes a test of its
   own adds the lemma for it (is_ok_eq, token_signed_spec) *)
#[export] Hint Rewrite negb_false_iff negb_true_iff orb_false_iff bytes_eqb_eq
  Nat.eqb_eq Nat.eqb_neq N.eqb_eq N.eqb_neq N.ltb_ge Z.eqb_eq Z.eqb_neq : tests.

(* One step backwards through a run that H says ended in a given value: the [bind], [&&] or [match] at the head of the
   procedure is inverted and what it inspected is kept as an equation E (a test as its proposition; none for a variable,
   which is replaced everywhere; the left operand of [&&] is itself walked to its end); when nothing is left at the head,
   a run that ended otherwise is closed.  Each step consumes the head symbol it dispatched on, so a walk ends.
   Unfold the procedure in the goal, then introduce H: unfolding inside H leaves a conversion for Qed, which the kernel
   may decide by running the fuelled encoder. *)
Ltac inv_step H :=
  let E := fresh "E" in
  lazymatch type of H with
  | bind _ _ = Ok _ => apply bind_Ok_inv in H as (? & E & H)
  | _ && _ = true => apply andb_prop in H as (E & H); repeat inv_step E
  | match ?x with _ => _ end = _ => tryif is_var x then destruct x else destruct x eqn:E
  | ?l = _ => let c := head_of l in is_constructor c; discriminate H
  end;
  try rewrite_strat (topdown (hints tests)) in E.

(* The whole run.  The goal is kept behind a name meanwhile: every case split would repeat it in its motive. *)
Ltac inv_run H := let G := fresh in lazymatch goal with |- ?g => set (G := g); repeat inv_step H; subst G end.

(* x ⊑ y: x ran out of fuel, or it is y.  Fuelled functions are monotone in their fuel for this order. *)
Definition le_out {A} (x y : outcome A) : Prop := x = OutOfFuel \/ x = y.

Lemma le_out_refl {A} (x : outcome A) : le_out x x.
Proof. now right. Qed.
Lemma le_out_oof {A} (y : outcome A) : le_out OutOfFuel y.
Proof. now left. Qed.
Lemma le_out_bind {A B} (x x' : outcome A) (k k' : A -> outcome B) :
  le_out x x' -> (forall a, le_out (k a) (k' a)) -> le_out (bind x k) (bind x' k').
Proof.
  intros [-> | ->] Hk; [now left|].
  destruct x'; cbn [bind]; try apply le_out_refl. apply Hk.
Qed.
Lemma le_out_if {A} (c : bool) (x x' y y' : outcome A) :
  le_out x x' -> le_out y y' -> le_out (if c then x else y) (if c then x' else y').
Proof. now destruct c. Qed.
Lemma le_out_eq {A} (x x' y y' : outcome A) : x = x' -> y = y' -> le_out x' y' -> le_out x y.
Proof. now intros -> ->. Qed.
Lemma le_out_use {A} (x y o : outcome A) : le_out x y -> x = o -> o <> OutOfFuel -> y = o.
Proof. intros [-> | ->] E N; [congruence|exact E]. Qed.
