(* Fdo/VoucherFacts.v — what it means for the voucher checks to pass. *)
From FDO Require Import Cbor.DecFacts Cose.Sign1Facts Fdo.Voucher.
Local Open Scope Z_scope.

Section Facts.
  Variable O_der : bool -> bytes -> bool.
  Variable O_rfc : bytes -> option Z.
  Variable O_verify : bytes -> sigscheme -> N -> bytes -> list bytes -> bool.
  Variable O_hash : N -> bytes -> bytes.
  Variable O_pubkey : val -> option pubkey.

  Notation check_entry := (check_entry O_der O_rfc O_verify).
  Notation validate := (validate O_der O_rfc O_verify O_hash O_pubkey).
  Notation verify_entries := (verify_entries O_der O_rfc O_verify O_hash O_pubkey).

  (* one link: signed by the previous owner, bound to the device (header-info hash) and to what precedes it *)
  Definition link_ok (prev_key : pubkey) (alg : Z) (prev_hash info_hash : bytes) (en : entry) : Prop :=
    sign1_verify O_der O_rfc O_verify ty_entry_payload TBytes prev_key (e_prot en) (e_payload en) None (e_sig en) (VBytes []) = Ok true /\
    exists pl pa pv hv pk, e_payload en = Some pl /\ payload_fields pl = Some (pa, pv, (alg, hv), pk) /\
      hv = info_hash /\ pv = prev_hash.

  Inductive chain_ok (alg : Z) (h : N) (info_hash : bytes) : pubkey -> bytes -> list entry -> Prop :=
  | chain_nil k ph : chain_ok alg h info_hash k ph []
  | chain_last k ph en : link_ok k alg ph info_hash en -> chain_ok alg h info_hash k ph [en]
  | chain_cons k ph en k' ph' e2 rest :
      link_ok k alg ph info_hash en ->
      entry_key O_pubkey en = Ok k' -> entry_hash O_hash h en = Ok ph' ->
      chain_ok alg h info_hash k' ph' (e2 :: rest) -> chain_ok alg h info_hash k ph (en :: e2 :: rest).

  (* validateNextEntry's test of one entry is [link_ok], and its recursion is [chain_ok]: everything below about
     vouchers that verify is proved on the chain *)
  Lemma check_entry_link k alg h ph ih en : check_entry k alg h ph ih en = Ok tt <-> link_ok k alg ph ih en.
  Proof.
    unfold Voucher.check_entry, link_ok. split.
    - intros H. inv_run H. subst.  repeat eexists; eassumption.
    - intros (S & pl & pa & pv & hv & pk & E & PF & -> & ->).
      rewrite S, E. cbn [bind negb]. rewrite PF, Z.eqb_refl, !bytes_eqb_refl. reflexivity.
  Qed.

  Theorem validate_chain l : forall k alg h ph ih, validate k alg h ph ih l = Ok tt <-> chain_ok alg h ih k ph l.
  Proof.
    induction l as [|en rest IH]; cbn [Voucher.validate]; [split; [constructor|reflexivity]|].
    split.
    - intros H. apply bind_Ok_inv in H as ([] & E & H). apply check_entry_link in E. destruct rest; [now constructor|].
      do 2 inv_step H. apply IH in H. econstructor 3; eassumption.
    - intros C. inversion C as [| ? ? ? L | ? ? ? k' ph' ? ? L EK EH C']; subst; apply (check_entry_link _ _ h) in L; rewrite L; cbn [bind].
      + reflexivity.
      + rewrite EK, EH. now apply IH.
  Qed.

  Lemma link_prev k alg ph ih en : link_ok k alg ph ih en ->
    exists pl pa pk, e_payload en = Some pl /\ payload_fields pl = Some (pa, ph, (alg, ih), pk).
  Proof. intros [_ (pl & pa & pv & hv & pk & E & PF & -> & ->)]. now exists pl, pa, pk. Qed.

  Lemma chain_inv alg h ih k ph en l : chain_ok alg h ih k ph (en :: l) ->
    link_ok k alg ph ih en /\
    (l <> [] -> exists k' ph', entry_key O_pubkey en = Ok k' /\ entry_hash O_hash h en = Ok ph' /\ chain_ok alg h ih k' ph' l).
  Proof. inversion 1; (split; [assumption|]); [congruence|eauto]. Qed.

  Lemma chain_payloads alg h ih k ph l : chain_ok alg h ih k ph l -> Forall (fun en => e_payload en <> None) l.
  Proof.
    induction 1 as [| ? ? ? L | ? ? ? ? ? ? ? L]; constructor; trivial;
      apply link_prev in L as (pl & ? & ? & -> & _); discriminate.
  Qed.

  (* both directions, for ExtendVoucher; the algorithm is the one of the first entry's PreviousHash, which
     [link_ok] does not compare, hence pl, pv, hh, pk *)
  Lemma verify_entries_cons hdr hm e0 rest :
    verify_entries hdr hm (e0 :: rest) = Ok tt <->
    exists mk mfg pl alg pv hh pk info h hb mb,
      header_mfg_key hdr = Some mk /\ O_pubkey mk = Some mfg /\
      e_payload e0 = Some pl /\ payload_fields pl = Some (alg, pv, hh, pk) /\
      header_info hdr = Some info /\ hash_of_alg alg = Some h /\
      enc enc_fuel ty_header hdr = Ok hb /\ enc enc_fuel ty_hash hm = Ok mb /\
      chain_ok alg h (O_hash h info) mfg (O_hash h (hb ++ mb)) (e0 :: rest).
  Proof.
    unfold Voucher.verify_entries, Voucher.e. split.
    - intros H. inv_run H. apply validate_chain in H. do 11 eexists. repeat split; eassumption.
    - intros (mk & mfg & pl & alg & pv & hh & pk & info & h & hb & mb & MK & PK & P0 & PF & HI & HA & EH & EM & C).
      rewrite MK, PK.
      replace (existsb _ (e0 :: rest)) with false; [rewrite P0, PF, HI, HA, EH, EM; now apply validate_chain|].
      symmetry. apply not_true_is_false. intros X. apply existsb_exists in X as (en & IN & N).
      apply chain_payloads in C. rewrite Forall_forall in C. destruct (e_payload en) eqn:P; [discriminate N|]. now apply (C en IN).
  Qed.

  (* Voucher.VerifyEntries passing on a non-empty list: the manufacturer key parses, every payload is present, the
     chain starts from hash(header || hmac) under the manufacturer key with the algorithm of the first entry *)
  Theorem verify_entries_chain hdr hm e0 rest :
    verify_entries hdr hm (e0 :: rest) = Ok tt ->
    exists mk mfg alg h info hb mb,
      header_mfg_key hdr = Some mk /\ O_pubkey mk = Some mfg /\ hash_of_alg alg = Some h /\
      header_info hdr = Some info /\ enc enc_fuel ty_header hdr = Ok hb /\ enc enc_fuel ty_hash hm = Ok mb /\
      Forall (fun en => e_payload en <> None) (e0 :: rest) /\
      chain_ok alg h (O_hash h info) mfg (O_hash h (hb ++ mb)) (e0 :: rest).
  Proof.
    intros V. apply verify_entries_cons in V
      as (mk & mfg & pl & alg & pv & hh & pk & info & h & hb & mb & MK & PK & _ & _ & HI & HA & EH & EM & C).
    exists mk, mfg, alg, h, info, hb, mb. repeat split; trivial. exact (chain_payloads _ _ _ _ _ _ C).
  Qed.

  (* the reported owner is the key named by the last entry (or the manufacturer key when never extended) *)
  Theorem owner_key_last hdr l en : owner_key O_pubkey hdr (l ++ [en]) = entry_key O_pubkey en.
  Proof. unfold owner_key. now rewrite rev_app_distr. Qed.

  (* an entry that is not the last is pinned by the PreviousHash of its successor *)
  Lemma chain_pins alg h ih l1 : forall k ph en e2 rest, chain_ok alg h ih k ph (l1 ++ en :: e2 :: rest) ->
    exists hv pl pa pk, entry_hash O_hash h en = Ok hv /\ e_payload e2 = Some pl /\ payload_fields pl = Some (pa, hv, (alg, ih), pk).
  Proof.
    induction l1 as [|a l1 IH]; cbn [app]; intros k ph en e2 rest C; apply chain_inv in C as [_ C].
    - destruct C as (k' & ph' & _ & EH & C); [discriminate|].
      apply chain_inv in C as [L _]. apply link_prev in L as (pl & pa & pk & L). eauto 8.
    - destruct C as (k' & ph' & _ & _ & C); [now destruct l1|]. eauto.
  Qed.

  (* ... so replacing it (payload, protected or unprotected header, signature) while the voucher still validates needs
     equal hashes of two entry encodings *)
  Theorem alter_nonlast_needs_collision l1 : forall k alg h ph ih en en' e2 rest,
    validate k alg h ph ih (l1 ++ en :: e2 :: rest) = Ok tt ->
    validate k alg h ph ih (l1 ++ en' :: e2 :: rest) = Ok tt ->
    exists hv, entry_hash O_hash h en = Ok hv /\ entry_hash O_hash h en' = Ok hv.
  Proof.
    intros k alg h ph ih en en' e2 rest V V'. apply validate_chain, chain_pins in V, V'.
    destruct V as (hv & pl & pa & pk & EH & P & PF), V' as (hv' & pl' & pa' & pk' & EH' & P' & PF').
    rewrite P in P'. injection P' as <-. rewrite PF in PF'. injection PF' as _ <- _. eauto.
  Qed.

  (* the header, the header HMAC and the device info are pinned by the first entry *)
  Theorem alter_header_needs_collision hdr hm hdr' hm' e0 rest :
    verify_entries hdr hm (e0 :: rest) = Ok tt -> verify_entries hdr' hm' (e0 :: rest) = Ok tt ->
    exists h hb mb hb' mb' info info',
      enc enc_fuel ty_header hdr = Ok hb /\ enc enc_fuel ty_hash hm = Ok mb /\
      enc enc_fuel ty_header hdr' = Ok hb' /\ enc enc_fuel ty_hash hm' = Ok mb' /\
      header_info hdr = Some info /\ header_info hdr' = Some info' /\
      O_hash h (hb ++ mb) = O_hash h (hb' ++ mb') /\ O_hash h info = O_hash h info'.
  Proof.
    intros V V'. apply verify_entries_chain in V, V'.
    destruct V as (mk & mfg & alg & h & info & hb & mb & _ & _ & HA & HI & EH & EM & _ & CH).
    destruct V' as (mk' & mfg' & alg' & h' & info' & hb' & mb' & _ & _ & HA' & HI' & EH' & EM' & _ & CH').
    apply chain_inv in CH as [L _], CH' as [L' _].
    apply link_prev in L, L'. destruct L as (pl & pa & pk & A & B), L' as (pl' & pa' & pk' & A' & B').
    rewrite A in A'. injection A' as <-. rewrite B in B'. injection B' as _ E1 E2 E3. subst alg'.
    rewrite HA in HA'. injection HA' as <-.
    exists h, hb, mb, hb', mb', info, info'. repeat split; auto.
  Qed.

  Lemma validate_no_panic p alg h ih l : forall k ph, validate k alg h ph ih l <> Panic p.
  Proof.
    induction l as [|en r IH]; cbn [Voucher.validate]; [discriminate|].
    unfold Voucher.check_entry, entry_key, entry_hash, Voucher.e. no_panic.
  Qed.

  Theorem verify_entries_no_panic hdr hm l p : verify_entries hdr hm l <> Panic p.
  Proof. pose proof validate_no_panic. unfold Voucher.verify_entries, Voucher.e. no_panic. Qed.
End Facts.
#[export] Hint Resolve verify_entries_no_panic : no_panic.
