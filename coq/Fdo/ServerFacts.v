(* Fdo/ServerFacts.v — history theorems about the server state machine (Fdo/Server.v).
   Everything rests on three statements: [respond_row] (what is served after a protocol's first message is a table of
   ten rows), [handle_step] (the five things a request can do to the session table) and [served] (a reply other than
   an error or a first reply comes from a row applied to a live session whose flags are accounted for by the history). *)
From FDO Require Import Fdo.Server.
Local Open Scope N_scope.

(* one entry: number of sessions before the step (a start message creates session number n), request, response, effects *)
Definition entry := (nat * request * response * list effect)%type.

Inductive reach : server -> list entry -> Prop :=
| reach_nil : reach [] []
| reach_step st h r st' resp eff :
    reach st h -> handle st r = (st', resp, eff) -> reach st' (h ++ [(length st, r, resp, eff)]).

Lemma update_length st : forall id s, length (update st id s) = length st.
Proof. induction st as [|x st IH]; intros [|id] s; cbn; auto. Qed.

Lemma nth_update_same st : forall id s, (id < length st)%nat -> nth_error (update st id s) id = Some s.
Proof. induction st as [|x st IH]; intros [|id] s H; cbn in *; try lia; auto. apply IH. lia. Qed.

Lemma nth_update_other st : forall id id' s, id <> id' -> nth_error (update st id s) id' = nth_error st id'.
Proof. induction st as [|x st IH]; intros [|id] [|id'] s H; cbn; auto; try congruence. Qed.

Lemma nth_update_cases st id s id' y : nth_error (update st id s) id' = Some y ->
  (id' = id /\ y = s) \/ nth_error st id' = Some y.
Proof.
   destruct (Nat.eq_dec id id') as [<-|NE]; [left|right; now rewrite nth_update_other in H].
  rewrite nth_update_same in H; [now injection H|].
  rewrite <- (update_length st id s). apply nth_error_Some. congruence.
Qed.

Lemma nth_app_new {A} (l : list A) x id y : nth_error (l ++ [x]) id = Some y ->
  (id = length l /\ y = x) \/ nth_error l id = Some y.
Proof.
  intros H. destruct (Nat.lt_ge_cases id (length l)); [right; now rewrite nth_error_app1 in H|left].
  rewrite nth_error_app2 in H by assumption.
  destruct (id - length l)%nat as [|[|n]] eqn:E; [injection H as <-; split; [lia|reflexivity]|discriminate..].
Qed.

Lemma lookup_some st t id s : lookup st t = Some (id, s) ->
  t = TSess id /\ nth_error st id = Some s /\ s_alive s = true /\ (id < length st)%nat.
Proof.
  unfold lookup. destruct t as [|i]; [discriminate|].
  destruct (nth_error st i) as [x|] eqn:E; [|discriminate]. destruct (s_alive x) eqn:A; [|discriminate].
  intros [= <- <-]. repeat split; auto. apply nth_error_Some. congruence.
Qed.

Lemma is_start_cases t : is_start t = true -> t = 10 \/ t = 20 \/ t = 30 \/ t = 60.
Proof. unfold is_start. intros H. repeat (apply orb_true_iff in H as [H|H]); apply N.eqb_eq in H; auto. Qed.

(* The messages after a protocol's first, as the handler serves them to a live session s of protocol p: what is
   demanded of the request (beside passing every check) and of the session, reply type, session afterwards, effects.
   Types 66..70 arrive through the tunnel: the session holds the keys of an accepted ProveDevice and the body decrypts
   under them.  Anything else is refused: reply 255, session killed. *)
Inductive row (s : sess) (r : request) : proto -> N -> sess -> list effect -> Prop :=
| row12 : r_type r = 12 -> s_started s = true -> row s r PDI 13 s [EDIVoucher]
| row22 : r_type r = 22 -> s_started s = true -> row s r PTO0 23 s [ERVBlob]
| row32 : r_type r = 32 -> s_started s = true -> row s r PTO1 33 s []
| row62 : r_type r = 62 -> s_started s = true -> row s r PTO2 63 s []
| row64 : r_type r = 64 -> s_started s = true ->
    row s r PTO2 65 (mksess PTO2 true true true (s_ready s) (s_hmac s) (s_devmod s) (s_svcdone s)) []
| row66 : r_type r = 66 -> s_proved s = true -> r_enc r = true ->
    row s r PTO2 67 (mksess PTO2 true (s_started s) (s_proved s) true (s_hmac s || r_hmac r) (s_devmod s) (s_svcdone s)) []
| row68_devmod : r_type r = 68 -> s_proved s = true -> r_enc r = true ->
    s_ready s = true -> s_svcdone s = false -> s_devmod s = false ->
    row s r PTO2 69 (mksess PTO2 true (s_started s) (s_proved s) true (s_hmac s) true false) []
| row68_module : r_type r = 68 -> s_proved s = true -> r_enc r = true ->
    s_ready s = true -> s_svcdone s = false -> s_devmod s = true ->
    row s r PTO2 69 (mksess PTO2 true (s_started s) (s_proved s) true (s_hmac s) true true) [EModule]
| row70_reuse : r_type r = 70 -> s_proved s = true -> r_enc r = true -> s_hmac s = false -> row s r PTO2 71 s []
| row70_replace : r_type r = 70 -> s_proved s = true -> r_enc r = true -> s_hmac s = true -> row s r PTO2 71 s [EReplace].

(* the responder itself does not look at the tunnel; the second hypothesis is the test the handler makes before it
   calls the responder *)
Lemma respond_row s r rt s' eff : is_start (r_type r) = false ->
  needs_tunnel (r_type r) && negb (s_proved s && r_enc r) = false -> respond (r_type r) s r = (rt, s', eff) ->
  (rt = 255 /\ s' = s /\ eff = []) \/ (r_ok r = true /\ row s r (s_proto s) rt s' eff).
Proof.
  intros IS NT H. unfold respond in H.
  destruct (s_proto s);
    repeat match type of H with context [if ?t =? ?k then _ else _] => destruct (N.eqb_spec t k) as [T|_] end;
    try (rewrite T in IS; discriminate IS); try (left; injection H as <- <- <-; now auto).
  (* one goal per accepted request type is left: H : (if guard then accepted else refused) = (rt, s', eff) *)
  all: match type of H with (if ?g then _ else _) = _ => destruct g eqn:C end;
         [right; rewrite ?andb_true_iff, ?negb_true_iff in C | left; injection H as <- <- <-; now auto].
  (* 68 and 70 have two rows each: which one is decided by a flag the accepted branch still tests *)
  all: repeat match type of H with context [if ?b then _ else _] => destruct b eqn:? end.
  all: rewrite T in NT; cbn in NT; try apply negb_false_iff, andb_true_iff in NT.
  all: injection H as <- <- <-; split; try tauto; constructor; assumption || apply C || apply NT.
Qed.

Lemma row_served s r p rt s' eff : row s r p rt s' eff -> (rt =? 255) = false.
Proof. now destruct 1. Qed.

(* a protocol's first message opens a session if it passes every check *)
Definition opened (p : proto) : sess := mksess p true true false false false false false.

Lemma handle_start_eq st r : is_start (r_type r) = true ->
  handle_start st (proto_of (r_type r)) r =
  if r_ok r then (st ++ [opened (proto_of (r_type r))], RType (r_type r + 1), [])
  else (st ++ [kill (fresh (proto_of (r_type r)))], RType 255, []).
Proof.
  intros IS. unfold handle_start, respond.
  destruct (is_start_cases _ IS) as [E|[E|[E|E]]]; rewrite E; cbn; destruct (r_ok r); reflexivity.
Qed.

Definition refusal (resp : response) : Prop := resp = RNoBody \/ resp = RType 255.

(* what one request does to the table: nothing; kills the session its token names; updates it by a row; appends a dead
   session (first message refused); appends an open one *)
Inductive step (st : server) (r : request) : server -> response -> list effect -> Prop :=
| step_skip resp : lookup st (r_tok r) = None \/ proto_of (r_type r) = PNone -> refusal resp -> step st r st resp []
| step_kill id s resp : lookup st (r_tok r) = Some (id, s) -> refusal resp -> step st r (update st id (kill s)) resp []
| step_serve id s rt s2 eff : lookup st (r_tok r) = Some (id, s) -> r_ok r = true -> row s r (s_proto s) rt s2 eff ->
    step st r (update st id (if is_final rt then kill s2 else s2)) (RType rt) eff
| step_refuse : is_start (r_type r) = true -> step st r (st ++ [kill (fresh (proto_of (r_type r)))]) (RType 255) []
| step_open : is_start (r_type r) = true -> r_ok r = true ->
    step st r (st ++ [opened (proto_of (r_type r))]) (RType (r_type r + 1)) [].

Lemma handle_cont_step st p r st' resp eff :
  is_start (r_type r) = false -> handle_cont st p r = (st', resp, eff) -> step st r st' resp eff.
Proof.
  unfold handle_cont. intros IS H.
  destruct (lookup st (r_tok r)) as [[id s]|] eqn:L; [|injection H as <- <- <-; apply step_skip; [left|right]; auto].
  assert (K : (update st id (kill s), RType 255, []) = (st', resp, eff) -> step st r st' resp eff)
    by (intros [= <- <- <-]; apply (step_kill _ _ _ _ _ L); now right).
  destruct (negb _); [exact (K H)|].
  destruct (needs_tunnel (r_type r) && negb (s_proved s && r_enc r))%bool eqn:NT; [exact (K H)|].
  destruct (respond (r_type r) s r) as [[rt s2] e2] eqn:R.
  destruct (respond_row _ _ _ _ _ IS NT R) as [[-> _]|[OK ROW]]; [exact (K H)|].
  rewrite (row_served _ _ _ _ _ _ ROW) in H.
  assert (S := step_serve st r id s rt s2 e2 L OK ROW). now destruct (is_final rt); injection H as <- <- <-.
Qed.

Theorem handle_step {st r st' resp eff} : handle st r = (st', resp, eff) -> step st r st' resp eff.
Proof.
  unfold handle. intros H.
  destruct (r_type r =? 255).
  { destruct (lookup st (r_tok r)) as [[id s]|] eqn:L; injection H as <- <- <-;
      [apply (step_kill _ _ _ _ _ L)|apply step_skip; [left; exact L|]]; now left. }
  destruct (proto_of (r_type r)) eqn:P; [..|injection H as <- <- <-; apply step_skip; now right].
  all: destruct (is_start (r_type r)) eqn:IS; [|now apply handle_cont_step in H].
  all: rewrite <- P, handle_start_eq in H by exact IS;
       destruct (r_ok r) eqn:OK; injection H as <- <- <-; now constructor.
Qed.

Definition proved_by (h : list entry) (id : nat) : Prop :=
  exists n r e, In (n, r, RType 65, e) h /\ r_type r = 64 /\ r_tok r = TSess id /\ r_ok r = true.
Definition ready_by (h : list entry) (id : nat) : Prop :=
  exists n r e, In (n, r, RType 67, e) h /\ r_type r = 66 /\ r_tok r = TSess id /\ r_ok r = true /\ r_enc r = true.
Definition hmac_by (h : list entry) (id : nat) : Prop :=
  exists n r e, In (n, r, RType 67, e) h /\ r_type r = 66 /\ r_tok r = TSess id /\ r_ok r = true /\ r_enc r = true /\ r_hmac r = true.
Definition started_by (h : list entry) (id : nat) (p : proto) : Prop :=
  exists r t e, In (id, r, RType t, e) h /\ is_start (r_type r) = true /\ proto_of (r_type r) = p /\ r_ok r = true /\ t <> 255.

(* the flags started, proved, ready and hmac that session id, of protocol p, carries are accounted for by accepted
   requests of the history; the
   tunnel keys exist only after an accepted ProveDevice, which needs the accepted HelloDevice of the same session *)
Definition backed (h : list entry) (id : nat) (p : proto) (s : sess) : Prop :=
  (s_started s = true -> started_by h id p) /\ (s_proved s = true -> s_started s = true) /\
  (s_proved s = true -> proved_by h id) /\ (s_ready s = true -> ready_by h id) /\ (s_hmac s = true -> hmac_by h id).

Definition Inv (st : server) (h : list entry) : Prop :=
  forall id s, nth_error st id = Some s -> backed h id (s_proto s) s.

Lemma backed_mono h y id p s : backed h id p s -> backed (h ++ [y]) id p s.
Proof.
  assert (I : forall x, In x h -> In x (h ++ [y])) by (intros; apply in_or_app; now left).
  unfold backed, proved_by, ready_by, hmac_by, started_by. intros (B1 & B2 & B3 & B4 & B5).
  repeat split; try assumption; intros X;
    [apply B1 in X|apply B3 in X|apply B4 in X|apply B5 in X]; destruct X as (a & b & c & X & Y); exists a, b, c; auto.
Qed.

Lemma Inv_update st h y id s' : Inv st h -> backed (h ++ [y]) id (s_proto s') s' -> Inv (update st id s') (h ++ [y]).
Proof. intros I B i x N. apply nth_update_cases in N as [[-> ->]|N]; [exact B|apply backed_mono, (I _ _ N)]. Qed.

Lemma Inv_app st h y s' : Inv st h -> backed (h ++ [y]) (length st) (s_proto s') s' -> Inv (st ++ [s']) (h ++ [y]).
Proof. intros I B i x N. apply nth_app_new in N as [[-> ->]|N]; [exact B|apply backed_mono, (I _ _ N)]. Qed.

(* a row keeps the session's protocol and keeps it accounted for: what it sets is witnessed by the entry being appended *)
Lemma row_backed h n id s r p rt s2 eff :
  r_tok r = TSess id -> r_ok r = true -> row s r p rt s2 eff -> s_proto s = p -> backed h id p s ->
  backed (h ++ [(n, r, RType rt, eff)]) id (s_proto s2) s2.
Proof.
  intros TK OK ROW P B. apply (backed_mono _ (n, r, RType rt, eff)) in B.
  assert (LAST := in_elt (n, r, RType rt, eff) h []).
  destruct ROW; try (rewrite P; exact B); destruct B as (B1 & B2 & B3 & B4 & B5); repeat split; cbn; auto.
  - (* 64 *) exists n, r, []. auto.
  - (* 66 *) exists n, r, []. auto.
  - intros [X|X]%orb_true_iff; [auto|]. exists n, r, []. repeat split; auto.
Qed.

Theorem reach_inv {st h} : reach st h -> Inv st h.
Proof.
  induction 1 as [|st h r st' resp eff _ IH H]; [intros [|] ? [=]|].
  destruct (handle_step H) as [resp _ _|id s resp L _|id s rt s2 eff L OK ROW|IS|IS OK].
  - intros id s N. apply backed_mono, (IH _ _ N).
  - apply Inv_update; [exact IH|]. apply lookup_some in L as (_ & N & _). apply backed_mono, (IH _ _ N).
  - apply Inv_update; [exact IH|]. apply lookup_some in L as (TK & N & _).
    enough (backed (h ++ [(length st, r, RType rt, eff)]) id (s_proto s2) s2) by now destruct (is_final rt).
    apply (row_backed _ _ _ s r _ _ _ _ TK OK ROW eq_refl), (IH _ _ N).
  - apply Inv_app; [exact IH|]. repeat split; discriminate.
  - apply Inv_app; [exact IH|]. repeat split; try discriminate.  exists r, (r_type r + 1), [].
    repeat split; auto; [apply in_elt|]. unfold is_start in IS. lia.
Qed.

Lemma proved_started st h : reach st h -> forall id s, nth_error st id = Some s -> s_proved s = true -> s_started s = true.
Proof. intros RCH id s N. apply (reach_inv RCH _ _ N). Qed.

(* An empty reply, an error and a first reply have no effect; every other reply is a row of the table applied, for a
   request passing every check, to the live session its token names, and that session's flags are accounted for.  The
   gates below read their rows off this statement: of the ten, those their hypothesis on reply and effects leaves. *)
Theorem served {st h r st' resp eff} : reach st h -> handle st r = (st', resp, eff) ->
  match resp with
  | RNoBody => eff = []
  | RType t => (eff = [] /\ In t [255; 11; 21; 31; 61]) \/
               exists id p s s2, r_tok r = TSess id /\ r_ok r = true /\ row s r p t s2 eff /\ backed h id p s
  end.
Proof.
  intros RCH H. destruct (handle_step H) as [resp _ Q|id s resp _ Q|id s rt s2 eff L OK ROW|IS|IS OK].
  1,2: destruct Q as [-> | ->]; cbn; auto.
  - right. apply lookup_some in L as (TK & N & _). exists id, (s_proto s), s, s2.
    repeat split; auto; now apply (reach_inv RCH _ _ N).
  -  cbn. auto.
  - left. split; [reflexivity|]. unfold is_start in IS. cbn [In]. lia.
Qed.

(* C02: SetupDevice is answered, later TO2 messages are accepted, modules run and vouchers are replaced only in a
   session in which a ProveDevice passed every check, and only for messages inside that session's tunnel *)
Theorem to2_setup_gate st h r st' eff :
  reach st h -> handle st r = (st', RType 65, eff) ->
  r_type r = 64 /\ r_ok r = true /\ exists id, r_tok r = TSess id /\ started_by h id PTO2.
Proof.
  intros RCH H. remember 65 as t eqn:E.
  destruct (served RCH H) as [[_ Q]|(id & p & s & s2 & TK & OK & ROW & B)]; [cbn in Q; lia|].
  destruct ROW; try discriminate E. repeat split; auto. exists id. split; [exact TK|now apply B].
Qed.

Theorem to2_tunnel_gate st h r st' t eff :
  reach st h -> handle st r = (st', RType t, eff) ->
  (t = 67 \/ t = 69 \/ t = 71 \/ In EModule eff \/ In EReplace eff) ->
  exists id, r_tok r = TSess id /\ r_enc r = true /\ proved_by h id.
Proof.
  intros RCH H C.
  destruct (served RCH H) as [[-> Q]|(id & p & s & s2 & TK & OK & ROW & B)]; [cbn in *; lia|].
  destruct ROW; try (exfalso; cbn in C; intuition discriminate); exists id; repeat split; auto; now apply B.
Qed.

(* C06 / C07 / C08: every persistent effect and the TO1 release come from the protocol's second message, passing every
   check, in a live session that the protocol's first message started *)
Theorem second_message_gate st h r st' t eff :
  reach st h -> handle st r = (st', RType t, eff) ->
  (In EDIVoucher eff \/ In ERVBlob eff \/ t = 33) ->
  exists id p, r_tok r = TSess id /\ r_ok r = true /\ started_by h id p /\
    ((In EDIVoucher eff /\ p = PDI /\ r_type r = 12 /\ t = 13) \/
     (In ERVBlob eff /\ p = PTO0 /\ r_type r = 22 /\ t = 23) \/
     (t = 33 /\ p = PTO1 /\ r_type r = 32)).
Proof.
  intros RCH H C.
  destruct (served RCH H) as [[-> Q]|(id & p & s & s2 & TK & OK & ROW & B)]; [cbn in *; lia|].
  exists id, p. destruct ROW; try (exfalso; cbn in C; intuition discriminate);
    (repeat split; [exact TK|exact OK|now apply B|]); cbn; auto 10.
Qed.

(* C08 / C16: an owner module runs only in a session that proved the device and announced readiness (66 accepted),
   for an in-tunnel DeviceServiceInfo that passes every check *)
Theorem module_gate st h r st' t eff :
  reach st h -> handle st r = (st', RType t, eff) -> In EModule eff ->
  exists id, r_tok r = TSess id /\ r_type r = 68 /\ t = 69 /\ r_ok r = true /\ r_enc r = true /\
    proved_by h id /\ ready_by h id.
Proof.
  intros RCH H C.
  destruct (served RCH H) as [[-> _]|(id & p & s & s2 & TK & OK & ROW & B)]; [contradiction|].
  destruct ROW; try (exfalso; cbn in C; intuition discriminate). exists id. repeat split; auto; now apply B.
Qed.

(* C08: a voucher is replaced only through 60, 64 (verified), 66 (carrying the replacement HMAC), 70 in one session ... *)
Theorem replace_chain_partial st h r st' t eff :
  reach st h -> handle st r = (st', RType t, eff) -> In EReplace eff ->
  exists id, r_tok r = TSess id /\ r_type r = 70 /\ r_ok r = true /\ r_enc r = true /\
    started_by h id PTO2 /\ proved_by h id /\ hmac_by h id.
Proof.
  intros RCH H C.
  destruct (served RCH H) as [[-> _]|(id & p & s & s2 & TK & OK & ROW & B)]; [contradiction|].
  destruct ROW; try (exfalso; cbn in C; intuition discriminate). exists id. repeat split; auto; apply B; auto. now apply B.
Qed.

(* ... but NOT only after the service-info phase completed: Done is accepted right after DeviceServiceInfoReady *)
Definition req (t : N) (id : nat) (hm : bool) : request := mkreq t (TSess id) true true hm.
Definition skip_serviceinfo : list request := [req 60 0 false; req 62 0 false; req 64 0 false; req 66 0 true; req 70 0 false].

Theorem replace_without_serviceinfo_refuted :
  exists rs, (forall r, In r rs -> r_type r <> 68) /\
             exists st out, run [] rs = (st, out) /\ In (RType 71, [EReplace]) out.
Proof.
  exists skip_serviceinfo. split.
  - intros r H. cbn in H. repeat (destruct H as [<-|H]; [cbn; discriminate|]). contradiction.
  - eexists. eexists. split; [vm_compute; reflexivity|]. cbn. auto 10.
Qed.

(* C08: a request whose token is missing, forged, damaged, or names a finished / errored session, and that is not a
   protocol's first message, gets an error (or, for an error message, no reply body), has no effect and changes nothing *)
Theorem bad_token_no_effect st r st' resp eff :
  lookup st (r_tok r) = None -> is_start (r_type r) = false -> handle st r = (st', resp, eff) ->
  st' = st /\ eff = [] /\ (resp = RType 255 \/ resp = RNoBody \/ resp = RType 0).
Proof.
  intros L IS H. destruct (handle_step H) as [resp _ [-> | ->]| | | |]; try congruence; auto.
Qed.

Theorem dead_after_final_or_error st r st' t eff id s :
  handle st r = (st', RType t, eff) -> lookup st (r_tok r) = Some (id, s) -> is_start (r_type r) = false ->
  (t = 255 /\ proto_of (r_type r) <> PNone) \/ is_final t = true -> lookup st' (TSess id) = None.
Proof.
  intros H L IS C. remember (RType t) as resp eqn:E.
  assert (K : forall x, lookup (update st id (kill x)) (TSess id) = None).
  { intros x. apply lookup_some in L as (_ & _ & _ & LT). unfold lookup. now rewrite nth_update_same. }
  destruct (handle_step H) as [resp [L'|P] Q|id' s' resp L' _|id' s' rt s2 eff L' _ ROW|IS'|IS' _];
    [congruence| | | |congruence..].
  - destruct Q as [-> | ->]; [discriminate|]. injection E as <-. destruct C as [[_ C]|C]; [contradiction|discriminate].
  - replace id' with id by congruence. apply K.
  - replace id' with id by congruence. injection E as <-. apply row_served in ROW.
    destruct C as [[-> _]| ->]; [discriminate ROW|apply K].
Qed.

(* C19: sessions do not interfere, under any interleaving of atomic requests.
   A request that does not present session id's token leaves that session exactly as it was *)
Theorem handle_frame st r st' resp eff id :
  (id < length st)%nat -> (forall s, lookup st (r_tok r) <> Some (id, s)) ->
  handle st r = (st', resp, eff) -> nth_error st' id = nth_error st id.
Proof.
  intros LT NT H. destruct (handle_step H) as [|id' s ? L _|id' s ? ? ? L _ _| |].
  1: reflexivity. 1,2: apply nth_update_other; intros ->; exact (NT s L). all: now apply nth_error_app1.
Qed.

(* a dead session never comes back: no later request, whatever its token, revives it *)
Theorem dead_forever st r st' resp eff id :
  (id < length st)%nat -> lookup st (TSess id) = None -> handle st r = (st', resp, eff) -> lookup st' (TSess id) = None.
Proof.
  intros LT D H. unfold lookup. rewrite (fun NT => handle_frame _ _ _ _ _ _ LT NT H); [exact D|].
  intros s L. destruct (lookup_some _ _ _ _ L) as [E _].  congruence.
Qed.

(* what a request presenting session id's token gets — response, effects, and the session's next state — depends on
   that session's own state only, not on how many or which other sessions exist *)
Theorem handle_local st1 st2 r id :
  r_tok r = TSess id -> is_start (r_type r) = false -> nth_error st1 id = nth_error st2 id ->
  (id < length st1)%nat -> (id < length st2)%nat ->
  snd (fst (handle st1 r)) = snd (fst (handle st2 r)) /\ snd (handle st1 r) = snd (handle st2 r) /\
  nth_error (fst (fst (handle st1 r))) id = nth_error (fst (fst (handle st2 r))) id.
Proof.
  intros TK IS EQ L1 L2.
  set (same (a b : server * response * list effect) :=
         snd (fst a) = snd (fst b) /\ snd a = snd b /\ nth_error (fst (fst a)) id = nth_error (fst (fst b)) id).
  assert (S0 : forall x e, same (st1, x, e) (st2, x, e)) by (repeat split; exact EQ).
  assert (S1 : forall y x e, same (update st1 id y, x, e) (update st2 id y, x, e))
    by (repeat split; cbn; now rewrite !nth_update_same).
  (* the token resolves alike in both tables, and every branch of the handler returns (st, x, e) or
     (update st id y, x, e) with x, e, y computed from the session; handle_cont is swept once, for any protocol
     (this is not read off [step], which does not say WHICH of its cases a session and a request select) *)
  change (same (handle st1 r) (handle st2 r)). unfold handle. rewrite IS.
  assert (CONT : forall p, same (handle_cont st1 p r) (handle_cont st2 p r)); [intros p; unfold handle_cont|].
  all: rewrite TK; replace (lookup st2 (TSess id)) with (lookup st1 (TSess id)) by (unfold lookup; now rewrite EQ).
  all: destruct (lookup st1 (TSess id)) as [[i s]|] eqn:L; [apply lookup_some in L as ([= <-] & _)|].
  - destruct (negb _); [apply S1|]. destruct (_ && _)%bool; [apply S1|].
    destruct (respond _ _ _) as [[rt s2] e2]. destruct (rt =? 255); [apply S1|]. destruct (is_final rt); apply S1.
  - apply S0.
  - destruct (r_type r =? 255), (proto_of (r_type r)); auto.
  - destruct (r_type r =? 255), (proto_of (r_type r)); auto.
Qed.

(* what [run] produces is reachable: the per-step theorems apply to every prefix of every history *)
Fixpoint run_from (st : server) (h : list entry) (rs : list request) : server * list entry :=
  match rs with
  | [] => (st, h)
  | r :: rest => let '(st', resp, eff) := handle st r in run_from st' (h ++ [(length st, r, resp, eff)]) rest
  end.

Theorem run_reach rs : forall st h, reach st h -> reach (fst (run_from st h rs)) (snd (run_from st h rs)).
Proof.
  induction rs as [|r rest IH]; intros st h RCH; cbn [run_from]; [exact RCH|].
  destruct (handle st r) as [[st' resp] eff] eqn:HS. apply IH. econstructor; eauto.
Qed.

Theorem run_from_run rs : forall st h, fst (run_from st h rs) = fst (run st rs) /\
  map (fun e : entry => (snd (fst e), snd e)) (snd (run_from st h rs)) = map (fun e : entry => (snd (fst e), snd e)) h ++ snd (run st rs).
Proof.
  induction rs as [|r rest IH]; intros st h; cbn [run_from run]; [cbn; now rewrite app_nil_r|].
  destruct (handle st r) as [[st' resp] eff]. destruct (IH st' (h ++ [(length st, r, resp, eff)])) as [A B].
  destruct (run st' rest) as [st'' out]. cbn [fst snd] in *. now rewrite B, map_app, <- app_assoc.
Qed.

(* C02 over whole histories: as long as no ProveDevice passing every check was received, the TO2 responder has
   answered nothing beyond ProveOVHdr / OVNextEntry and errors, and no module ran and no voucher was replaced *)
Definition served_beyond_header (x : entry) : Prop :=
  let '(_, _, resp, eff) := x in
  resp = RType 65 \/ resp = RType 67 \/ resp = RType 69 \/ resp = RType 71 \/ In EModule eff \/ In EReplace eff.

Theorem no_proof_no_service st h :
  reach st h ->
  (forall n r resp e, In (n, r, resp, e) h -> r_type r = 64 -> r_ok r = false) ->
  forall x, In x h -> ~ served_beyond_header x.
Proof.
  induction 1 as [|st h r st' resp eff RCH IH HS]; intros NOK x IN; [contradiction|].
  apply in_app_or in IN as [IN|[<-|[]]]; [apply IH; [|exact IN]; intros; eapply NOK; [apply in_or_app; left|]; eauto|].
  assert (NP : forall id, ~ proved_by h id).
  { intros id (n & r0 & e & IN0 & T & _ & OK). rewrite (NOK _ _ _ _ (in_or_app _ _ _ (or_introl IN0)) T) in OK. discriminate. }
  cbn. intros C. assert (S := served RCH HS).
  destruct resp as [t|]; [|rewrite S in C; cbn in C; intuition discriminate].
  destruct S as [[-> Q]|(id & p & s & s2 & TK & OK & ROW & B)];
    [destruct C as [[= ->]|[[= ->]|[[= ->]|[[= ->]|[[]|[]]]]]]; cbn in Q; lia|].
  destruct ROW as [| | | |T| | | | |].
  1-4: cbn in C; intuition discriminate.
  1: rewrite (NOK _ _ _ _ (in_elt _ _ _) T) in OK; discriminate.
  all: apply (NP id), B; assumption.
Qed.
