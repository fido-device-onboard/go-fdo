From FDO Require Import Fdo.Extend.
Local Open Scope Z_scope.
Lemma t4 (O_hash : N -> bytes -> bytes) h hdr hm  : prev_hash O_hash h hdr hm [] = 
  (let* hb := enc enc_fuel ty_header hdr in let* mb := enc enc_fuel ty_hash hm in Ok (O_hash h (hb ++ mb))).
Proof. reflexivity.
Qed.
