(* Fdo/ExtendFacts.v — ExtendVoucher: who may extend, and that an honest extension of a verifying voucher verifies. *)
From FDO Require Import Base.ResultFacts Fdo.Extend Fdo.VoucherFacts.
Local Open Scope Z_scope.

Lemma pubkey_eqb_eq a b : pubkey_eqb a b = true -> a = b.
Proof.
  destruct a as [n i|i|], b as [m j|j|]; cbn; try discriminate.
  - intros H. apply andb_true_iff in H as [N B]. apply Nat.eqb_eq in N. apply bytes_eqb_eq in B. now subst.
  - intros B. apply bytes_eqb_eq in B. now subst.
Qed.

Lemma kshape_eqb_eq a b : kshape_eqb a b = true -> a = b /\ a <> KOtherKey.
Proof.
  destruct a, b; cbn; try discriminate; intros H; apply N.eqb_eq in H; split; congruence.
Qed.

Section Facts.
  Variable O_der : bool -> bytes -> bool.
  Variable O_rfc : bytes -> option Z.
  Variable O_verify : bytes -> sigscheme -> N -> bytes -> list bytes -> bool.
  Variable O_hash : N -> bytes -> bytes.
  Variable O_pubkey : val -> option pubkey.

  Notation verify_entries := (verify_entries O_der O_rfc O_verify O_hash O_pubkey).

  (* only the current owner can extend: the guard passes only for a signer whose public key IS the key the voucher
     currently ends in, and only among keys of one kind and size (manufacturer = signer = next owner) *)
  Theorem extend_guard_owner mfg signer next signer_key hdr es :
    extend_guard O_pubkey mfg signer next signer_key hdr es = true ->
    owner_key O_pubkey hdr es = Ok signer_key /\ mfg = signer /\ signer = next /\ signer <> KOtherKey.
  Proof.
    unfold extend_guard. intros H. apply andb_true_iff in H as [H N]. apply andb_true_iff in H as [M O].
    destruct (owner_key O_pubkey hdr es) as [k| | |]; try discriminate. apply pubkey_eqb_eq in O. 
    destruct signer; destruct next; try discriminate;
      apply kshape_eqb_eq in M as [-> _]; apply kshape_eqb_eq in N as [-> _]; repeat split; congruence.
  Qed.

  (* where the next entry attaches: [owner_key] and [prev_hash] of a non-empty list speak of its last entry only *)
  Lemma tip_cons hdr hm h a b r :
    owner_key O_pubkey hdr (a :: b :: r) = owner_key O_pubkey hdr (b :: r) /\
    prev_hash O_hash h hdr hm (a :: b :: r) = prev_hash O_hash h hdr hm (b :: r).
  Proof.
    unfold owner_key, prev_hash, last_entry. cbn [rev].
    destruct (rev r ++ [b]) eqn:E; [destruct (rev r); discriminate E|]. split; reflexivity.
  Qed.

  Lemma tip_nil hdr hm h k ph : owner_key O_pubkey hdr [] = Ok k -> prev_hash O_hash h hdr hm [] = Ok ph ->
    exists mk hb mb, header_mfg_key hdr = Some mk /\ O_pubkey mk = Some k /\
      enc enc_fuel ty_header hdr = Ok hb /\ enc enc_fuel ty_hash hm = Ok mb /\ ph = O_hash h (hb ++ mb).
  Proof.
    unfold owner_key, prev_hash, last_entry. cbn [rev]. intros OK PH. repeat inv_step OK. repeat inv_step PH.
    injection OK as <-. injection PH as <-. eauto 8.
  Qed.

  Lemma tip_one hdr hm h a :
    owner_key O_pubkey hdr [a] = entry_key O_pubkey a /\ prev_hash O_hash h hdr hm [a] = entry_hash O_hash h a.
  Proof. split; reflexivity. Qed.

  (* one more link at the tip of a chain *)
  Lemma chain_snoc alg h ih hdr hm en kl phl : forall l k ph,
    l <> [] -> chain_ok O_der O_rfc O_verify O_hash O_pubkey alg h ih k ph l ->
    owner_key O_pubkey hdr l = Ok kl -> prev_hash O_hash h hdr hm l = Ok phl ->
    link_ok O_der O_rfc O_verify kl alg phl ih en ->
    chain_ok O_der O_rfc O_verify O_hash O_pubkey alg h ih k ph (l ++ [en]).
  Proof.
    induction l as [|a [|b r] IH]; intros k ph NE C OK PH L; [contradiction| |];
      apply chain_inv in C as [La C]; cbn [app].
    - destruct (tip_one hdr hm h a) as [T1 T2]. rewrite T1 in OK. rewrite T2 in PH.
      econstructor 3; [exact La|exact OK|exact PH|now constructor].
    - destruct C as (k' & ph' & EK & EH & C); [discriminate|].
      destruct (tip_cons hdr hm h a b r) as [T1 T2]. rewrite T1 in OK. rewrite T2 in PH.
      econstructor 3; [exact La|exact EK|exact EH|]. apply IH; trivial. discriminate.
  Qed.

  (* an honest extension verifies: a voucher whose entries verify, extended with an entry whose payload is the one
     ExtendVoucher builds (same algorithm as the chain) and whose signature verifies under the voucher's current owner
     key, verifies again — for a chain of any length, including the first extension by the manufacturer *)
  Theorem extend_verifies hdr hm es alg extra next_pk pl prot unprot sig k :
    verify_entries hdr hm es = Ok tt ->
    owner_key O_pubkey hdr es = Ok k ->
    match es with
    | [] => True
    | e0 :: _ => exists pl0 pv hh pk, e_payload e0 = Some pl0 /\ payload_fields pl0 = Some (alg, pv, hh, pk)
    end ->
    extend_payload O_hash alg hdr hm es extra next_pk = Ok pl ->
    sign1_verify O_der O_rfc O_verify ty_entry_payload TBytes k prot (Some pl) None sig (VBytes []) = Ok true ->
    verify_entries hdr hm (extend_with es prot unprot pl sig) = Ok tt.
  Proof.
    intros V OK A EP SG. unfold extend_payload in EP.
    destruct (hash_of_alg alg) as [h|] eqn:HA; [|discriminate EP].
    destruct (header_info hdr) as [info|] eqn:HI; [|discriminate EP].
    apply bind_Ok_inv in EP as (ph & PH & EP). injection EP as <-.
    unfold extend_with. destruct es as [|e0 rest]; cbn [app]; apply verify_entries_cons.
    - destruct (tip_nil _ _ _ _ _ OK PH) as (mk & hb & mb & MK & PK & EH & EM & ->).
      do 11 eexists. repeat split; try eassumption.
      constructor. split; [exact SG|repeat eexists].
    - apply verify_entries_cons in V
        as (mk & mfg & pl0 & alg' & pv & hh & pk & info' & h' & hb & mb & MK & PK & P0 & PF & HI' & HA' & EH & EM & C).
      destruct A as (pl1 & pv1 & hh1 & pk1 & P1 & PF1). rewrite P0 in P1. injection P1 as <-.
      rewrite PF in PF1. injection PF1 as -> _ _ _. rewrite HA in HA'. injection HA' as <-. rewrite HI in HI'. injection HI' as <-.
      do 11 eexists. repeat split; try eassumption.
      eapply chain_snoc with (hdr := hdr) (hm := hm) (l := e0 :: rest); try eassumption; [discriminate|].
      split; [exact SG|repeat eexists].
  Qed.

  (* and the extended voucher's owner is the key named in the new entry *)
  Theorem extend_owner hdr es prot unprot sig alg ph ih extra next_pk :
    owner_key O_pubkey hdr
      (extend_with es prot unprot (VList [VList [VInt alg; VBytes ph]; VList [VInt alg; VBytes ih]; extra; next_pk]) sig) =
    match O_pubkey next_pk with Some nk => Ok nk | None => Err EOther end.
  Proof. unfold extend_with. rewrite owner_key_last. reflexivity. Qed.
End Facts.
