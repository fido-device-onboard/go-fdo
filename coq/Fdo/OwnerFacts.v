(* Fdo/OwnerFacts.v — what acceptance of ProveDevice / ProveToRV / OwnerSign means, byte for byte. *)
From FDO Require Import Base.ResultFacts Fdo.Owner.
Local Open Scope Z_scope.

Section Facts.
  Variable O_der : bool -> bytes -> bool.
  Variable O_rfc : bytes -> option Z.
  Variable O_verify : bytes -> sigscheme -> N -> bytes -> list bytes -> bool.
  Variable O_hash : N -> bytes -> bytes.
  Variable O_pubkey : val -> option pubkey.

  Notation open_token := (open_token O_der O_rfc).
  Notation token_signed := (token_signed O_der O_rfc O_verify).

  Lemma token_signed_spec key prot pl sig : token_signed key prot pl sig = true <->
    sign1_verify O_der O_rfc O_verify TRaw TBytes key prot (Some (VRaw pl)) None sig (VBytes []) = Ok true.
  Proof. unfold Owner.token_signed. destruct (sign1_verify _ _ _ _ _ _ _ _ _ _ _) as [[|]| | |]; split; congruence. Qed.
  Lemma ueid_tag t : Byte.to_N t = 1%N <-> t = byte_of_N 1.
  Proof. split; [intros E; now rewrite <- (byte_of_to_N t), E|now intros ->]. Qed.
  Local Hint Rewrite token_signed_spec ueid_tag : tests.

  (* TO2.ProveDevice accepted: the token is signed by the device key over exactly these claims, carries this session's
     nonce, names this session's GUID, and its key-exchange parameter was acceptable *)
  Theorem prove_device_sound devkey guid nonce xb_ok body :
    prove_device_ok O_der O_rfc O_verify devkey guid nonce xb_ok body = true ->
    exists prot unprot pl sig eat xb,
      open_token body = Some (prot, unprot, pl, sig, eat) /\
      sign1_verify O_der O_rfc O_verify TRaw TBytes devkey prot (Some (VRaw pl)) None sig (VBytes []) = Ok true /\
      claim 10 eat = Some (VBytes nonce) /\ claim 256 eat = Some (VBytes (byte_of_N 1 :: guid)) /\
      claim (-257) eat = Some (VList [VBytes xb]) /\ xb_ok xb = true.
  Proof.
    unfold prove_device_ok. intros H. inv_run H. subst. do 6 eexists; repeat split; eauto.
  Qed.

  (* TO1.ProveToRV accepted: this session's nonce, a GUID with a live registration, signed by that registration's device key *)
  Theorem prove_to_rv_sound registered nonce body :
    prove_to_rv_ok O_der O_rfc O_verify registered nonce body = true ->
    exists prot unprot pl sig eat guid key,
      open_token body = Some (prot, unprot, pl, sig, eat) /\
      claim 10 eat = Some (VBytes nonce) /\ claim 256 eat = Some (VBytes (byte_of_N 1 :: guid)) /\ length guid = 16%nat /\
      registered guid = Some key /\
      sign1_verify O_der O_rfc O_verify TRaw TBytes key prot (Some (VRaw pl)) None sig (VBytes []) = Ok true.
  Proof.
    unfold prove_to_rv_ok. intros H. inv_run H. apply token_signed_spec in H.
    subst. do 7 eexists; repeat split; eauto.
  Qed.

  (* TO0.OwnerSign accepted: the to1d blob carries the hash of the to0d as re-encoded, the voucher inside has a verifying
     chain of at least one entry, the blob is signed by the key that chain ends in, the nonce is the session's and the
     requested wait passed the policy *)
  Theorem owner_sign_sound nonce ttl_ok body :
    owner_sign_ok O_der O_rfc O_verify O_hash O_pubkey nonce ttl_ok body = true ->
    exists v0 hdr hm v3 ents wait tprot tun t0 halg hval tsig h tb e0 rest owner,
      sdec O_der O_rfc ty_owner_sign body =
        Ok (VList [VList [VList [v0; hdr; hm; v3; VList ents]; VInt wait; VBytes nonce];
                   VList [VMap tprot; tun; VList [t0; VList [VInt halg; VBytes hval]]; VBytes tsig]]) /\
      any_hash_of_alg halg = Some h /\
      enc enc_fuel ty_to0d (VList [VList [v0; hdr; hm; v3; VList ents]; VInt wait; VBytes nonce]) = Ok tb /\
      O_hash h tb = hval /\
      entries_of_vals ents = Some (e0 :: rest) /\
      (exists r, verify_entries O_der O_rfc O_verify O_hash O_pubkey hdr hm (e0 :: rest) = Ok r) /\
      owner_key O_pubkey hdr (e0 :: rest) = Ok owner /\
      sign1_verify O_der O_rfc O_verify ty_to1d_payload TBytes owner tprot
        (Some (VList [t0; VList [VInt halg; VBytes hval]])) None tsig (VBytes []) = Ok true /\
      ttl_ok wait = true.
  Proof.
    unfold owner_sign_ok. intros H. inv_run H. subst. repeat eexists; eauto.
  Qed.

  (* conversely, tokens with these properties (and, for ProveDevice, a serial-number header that parses) are accepted *)
  Theorem prove_to_rv_complete registered nonce body prot unprot pl sig eat guid key :
    open_token body = Some (prot, unprot, pl, sig, eat) ->
    claim 10 eat = Some (VBytes nonce) -> claim 256 eat = Some (VBytes (byte_of_N 1 :: guid)) -> length guid = 16%nat ->
    registered guid = Some key ->
    sign1_verify O_der O_rfc O_verify TRaw TBytes key prot (Some (VRaw pl)) None sig (VBytes []) = Ok true ->
    prove_to_rv_ok O_der O_rfc O_verify registered nonce body = true.
  Proof.
    intros OT C10 C256 L RG SG. unfold prove_to_rv_ok. rewrite OT, C10, C256, bytes_eqb_refl.
    cbn [andb]. rewrite L, RG. unfold Owner.token_signed. rewrite SG. reflexivity.
  Qed.

  Theorem prove_device_complete devkey guid nonce xb_ok body prot unprot pl sig eat xb sn :
    open_token body = Some (prot, unprot, pl, sig, eat) ->
    Crypter.parse_hdr O_der O_rfc (TFixed 16) (-259) unprot = Ok (Some sn) ->
    sign1_verify O_der O_rfc O_verify TRaw TBytes devkey prot (Some (VRaw pl)) None sig (VBytes []) = Ok true ->
    claim 10 eat = Some (VBytes nonce) -> claim 256 eat = Some (VBytes (byte_of_N 1 :: guid)) ->
    claim (-257) eat = Some (VList [VBytes xb]) -> xb_ok xb = true ->
    prove_device_ok O_der O_rfc O_verify devkey guid nonce xb_ok body = true.
  Proof.
    intros OT PH SG C10 C256 C257 XB. unfold prove_device_ok. rewrite OT, PH. unfold Owner.token_signed. rewrite SG.
    rewrite C10, C256, C257, !bytes_eqb_refl, XB. reflexivity.
  Qed.

  Theorem owner_sign_complete nonce ttl_ok body v0 hdr hm v3 ents wait tprot tun t0 halg hval tsig h tb e0 rest owner :
    sdec O_der O_rfc ty_owner_sign body =
      Ok (VList [VList [VList [v0; hdr; hm; v3; VList ents]; VInt wait; VBytes nonce];
                 VList [VMap tprot; tun; VList [t0; VList [VInt halg; VBytes hval]]; VBytes tsig]]) ->
    any_hash_of_alg halg = Some h ->
    enc enc_fuel ty_to0d (VList [VList [v0; hdr; hm; v3; VList ents]; VInt wait; VBytes nonce]) = Ok tb ->
    O_hash h tb = hval ->
    entries_of_vals ents = Some (e0 :: rest) ->
    verify_entries O_der O_rfc O_verify O_hash O_pubkey hdr hm (e0 :: rest) = Ok tt ->
    owner_key O_pubkey hdr (e0 :: rest) = Ok owner ->
    sign1_verify O_der O_rfc O_verify ty_to1d_payload TBytes owner tprot
      (Some (VList [t0; VList [VInt halg; VBytes hval]])) None tsig (VBytes []) = Ok true ->
    ttl_ok wait = true ->
    owner_sign_ok O_der O_rfc O_verify O_hash O_pubkey nonce ttl_ok body = true.
  Proof.
    intros SD HA EN HH EV VE OK SG TT. unfold owner_sign_ok.
    rewrite SD, HA, EN, HH, bytes_eqb_refl, EV, VE, OK, SG, bytes_eqb_refl, TT. reflexivity.
  Qed.
End Facts.
