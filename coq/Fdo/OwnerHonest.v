(* Fdo/OwnerHonest.v — what lets the completeness of the checks (OwnerFacts) speak of the honest peer's BYTES: a well-formed
   value, once encoded, is decoded back (codec round trip, C11), so what the checks open is what the peer built.  From this
   and completeness follow C02_, C06_ and C07_honest_accepted: the honest peer is never refused. *)
From FDO Require Import Cbor.RoundTripWf Cbor.RoundTrip Fdo.Owner.
Local Open Scope Z_scope.

Section Honest.
  Variable O_der : bool -> bytes -> bool.
  Variable O_rfc : bytes -> option Z.

  (* the first item of the encoding of a well-formed value is that value *)
  Lemma sdec_enc fe t v body : wf O_der 0 t v -> enc fe t v = Ok body -> sdec O_der O_rfc t body = Ok v.
  Proof.
    intros W E. unfold sdec. pose proof (dec_enc_fuel_for O_der O_rfc fe t v body W E []) as D.
    rewrite app_nil_r in D. now rewrite D.
  Qed.

  (* decoding the encoding of a token value gives the token back *)
  Lemma open_token_enc fe fe' prot unprot pl sig eat body :
    wf O_der 0 ty_token (VList [VMap prot; VMap unprot; VRaw pl; VBytes sig]) ->
    enc fe ty_token (VList [VMap prot; VMap unprot; VRaw pl; VBytes sig]) = Ok body ->
    wf O_der 0 ty_eat (VMap eat) -> enc fe' ty_eat (VMap eat) = Ok pl ->
    open_token O_der O_rfc body = Some (prot, unprot, pl, sig, eat).
  Proof.
    intros W E We Ee. unfold open_token.
    now rewrite (sdec_enc _ _ _ _ W E), (unmarshal_enc O_der O_rfc fe' ty_eat (VMap eat) pl We Ee).
  Qed.
End Honest.

(* the premises are satisfiable: a concrete token value (empty unprotected header aside) is well-formed and encodes *)
Example honest_token_exists :
  let eat := [(VInt 10, VBytes (repeat x00 16)); (VInt 256, VBytes (byte_of_N 1 :: repeat x00 16))] in
  exists pl body,
    enc 4096 ty_eat (VMap eat) = Ok pl /\
    enc 4096 ty_token (VList [VMap [(VInt 1, VInt (-7))]; VMap []; VRaw pl; VBytes (repeat x00 64)]) = Ok body /\
    RoundTripCheck.wfb (fun _ _ => true) 400 0 ty_eat (VMap eat) = true /\
    RoundTripCheck.wfb (fun _ _ => true) 400 0 ty_token (VList [VMap [(VInt 1, VInt (-7))]; VMap []; VRaw pl; VBytes (repeat x00 64)]) = true.
Proof.
  do 2 eexists. repeat split.
Qed.
