(* Fdo/HandoverFacts.v — device credential and stored voucher agree after DI and after every TO2 round. *)
From FDO Require Import Base.ResultFacts Fdo.Handover.
Local Open Scope Z_scope.

Section Facts.
  Variable O_hash : N -> bytes -> bytes.
  Variable O_hmac : N -> bytes -> bytes -> bytes.
  Notation device_adopts := (device_adopts O_hash O_hmac).
  Notation agrees := (agrees O_hash O_hmac).

  Definition header_cch_of (hdr : val) : option val := match hdr with VList [_; _; _; _; _; c] => Some c | _ => None end.

  Lemma hmac_alg_matches alg h : hash_of_alg alg = Some h -> hmac_of_alg (hmac_alg_of_hash alg) = Some h.
  Proof.
    unfold hash_of_alg, hmac_alg_of_hash, hmac_of_alg.
    destruct (alg =? -16); [|destruct (alg =? -43)]; now intros [= <-].
  Qed.

  (* whatever header the device adopts (DI: the one in SetCredentials; TO2: the one it assembled), a voucher stored
     with exactly that header and the HMAC the device sent verifies against the credential the device keeps *)
  Theorem adopt_agrees secret alg hdr hm c : device_adopts secret alg hdr = Ok (hm, c) -> agrees secret c hdr hm.
  Proof.
    unfold Handover.device_adopts, Handover.agrees, Handover.e. intros H. inv_run H. injection H as <- <-.
    unfold verify_header, verify_mfg_key, header_mfg_key, Voucher.e. cbn [c_kalg c_kval c_version c_guid c_rvinfo c_devinfo].
    rewrite (hmac_alg_matches _ _ E), E, E0, E1. cbn [bind]. rewrite !bytes_eqb_refl. unfold header. eauto.
  Qed.

  (* device and owner assemble the replacement header from the same parts of the voucher the device was shown *)
  Theorem replacement_same hdr g r k : device_replacement hdr g r k = owner_replacement hdr g r k.
  Proof. reflexivity. Qed.

  Lemma owner_replacement_shape hdr g r k hdr' : owner_replacement hdr g r k = Some hdr' ->
    exists v d c, hdr' = header v g r d k c /\ header_cch_of hdr = Some c.
  Proof.
    unfold owner_replacement, header_cch_of. intros H. inv_run H. injection H as <-. eauto.
  Qed.

  (* one TO2 with credential replacement: if the owner stores the header it assembled with the HMAC the device sent,
     the new voucher agrees with the new credential, which carries the session's GUID and rendezvous info *)
  Theorem round_agrees secret alg hdr g r k hdr' hm' c' :
    owner_replacement hdr g r k = Some hdr' ->
    device_replacement hdr g r k = Some hdr' ->
    device_adopts secret alg hdr' = Ok (hm', c') ->
    agrees secret c' hdr' hm' /\ c_guid c' = g /\ c_rvinfo c' = r.
  Proof.
    intros OR _ AD. apply adopt_agrees in AD as A. split; [exact A|].
    destruct A as (_ & _ & key & cch & E), (owner_replacement_shape _ _ _ _ _ OR) as (v & d & c & -> & _).
    injection E as _ <- <- _. auto.
  Qed.

  (* any number of rounds: each round either reuses the credential (nothing changes) or replaces it as above *)
  Inductive rounds (secret : bytes) : cred -> val -> val -> cred -> val -> val -> Prop :=
  | rounds_nil c hdr hm : rounds secret c hdr hm c hdr hm
  | rounds_reuse c hdr hm c2 hdr2 hm2 : rounds secret c hdr hm c2 hdr2 hm2 -> rounds secret c hdr hm c2 hdr2 hm2
  | rounds_replace c hdr hm c1 hdr1 hm1 alg g r k c2 hdr2 hm2 :
      rounds secret c hdr hm c1 hdr1 hm1 ->
      owner_replacement hdr1 g r k = Some hdr2 -> device_replacement hdr1 g r k = Some hdr2 ->
      device_adopts secret alg hdr2 = Ok (hm2, c2) ->
      rounds secret c hdr hm c2 hdr2 hm2.

  Theorem rounds_agree secret c hdr hm c' hdr' hm' :
    agrees secret c hdr hm -> rounds secret c hdr hm c' hdr' hm' -> agrees secret c' hdr' hm'.
  Proof.
    intros A R. induction R; auto. eapply round_agrees; eassumption.
  Qed.

  (* the device-certificate hash (last header field) never changes over rounds *)
  Theorem rounds_keep_cch secret c hdr hm c' hdr' hm' cch :
    rounds secret c hdr hm c' hdr' hm' -> header_cch_of hdr = Some cch -> header_cch_of hdr' = Some cch.
  Proof.
    intros R. induction R as [| |? ? ? ? ? ? ? ? ? ? ? ? ? R IH OR]; auto.
    intros C. destruct (owner_replacement_shape _ _ _ _ _ OR) as (v & d & c0 & -> & E).
    rewrite (IH C) in E. now injection E as <-.
  Qed.
End Facts.
