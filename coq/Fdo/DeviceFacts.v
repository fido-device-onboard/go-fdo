(* Fdo/DeviceFacts.v — the device sends its ProveDevice token only after every check of C01 passed. *)
From FDO Require Import Base.ResultFacts Fdo.Device.
Local Open Scope Z_scope.

Lemma pubkey_eqb_eq a b : pubkey_eqb a b = true -> a = b.
Proof.
  destruct a, b; cbn; try discriminate; intros H.
  - apply andb_true_iff in H as [A B]. apply Nat.eqb_eq in A. apply bytes_eqb_eq in B. congruence.
  - apply bytes_eqb_eq in H. congruence.
Qed.

Lemma pubkey_eqb_refl k : k <> PubOther -> pubkey_eqb k k = true.
Proof.
  destruct k; cbn; intros H; [| |contradiction].
  - now rewrite Nat.eqb_refl, bytes_eqb_refl.
  - apply bytes_eqb_refl.
Qed.

Lemma is_ok_eq (o : outcome unit) : is_ok o = true <-> o = Ok tt.
Proof. destruct o as [[]| | |]; cbn; split; congruence. Qed.
#[export] Hint Rewrite is_ok_eq : tests.

Section Facts.
  Variable O_der : bool -> bytes -> bool.
  Variable O_rfc : bytes -> option Z.
  Variable O_verify : bytes -> sigscheme -> N -> bytes -> list bytes -> bool.
  Variable O_hash : N -> bytes -> bytes.
  Variable O_hmac : N -> bytes -> bytes -> bytes.
  Variable O_pubkey : val -> option pubkey.

  Notation unm := (unmarshal O_der O_rfc).
  Notation verify_owner := (verify_owner O_der O_rfc O_verify O_hash O_hmac O_pubkey).

  (* what the device has established when it goes on to prove itself *)
  Definition checked (d : dev_state) (b61 : bytes) (resps : list msg) (to1d : option bytes) (k : pubkey) (pdn : bytes) : Prop :=
    exists prot unprot sig ovh num hm si xa halg hval mx hh pk es,
      let pl := VList [ovh; VInt num; hm; VBytes (d_nonce d); si; VBytes xa; VList [VInt halg; VBytes hval]; VInt mx] in
      sdec O_der O_rfc ty_prove_ovhdr b61 = Ok (VList [VMap prot; VMap unprot; pl; VBytes sig]) /\
      (* the proof is bound to this run: hash of the HelloDevice sent and its fresh nonce *)
      any_hash_of_alg halg = Some hh /\ O_hash hh (d_hello d) = hval /\
      (* signed by the key the message advertises, and that key is the one the voucher chain ends in *)
      parse_hdr O_der O_rfc ty_pubkey 257 unprot = Ok (Some pk) /\ O_pubkey pk = Some k /\
      sign1_verify O_der O_rfc O_verify ty_ovh_proof TBytes k prot (Some pl) None sig (VBytes []) = Ok true /\
      parse_hdr O_der O_rfc (TFixed 16) 256 unprot = Ok (Some (VBytes pdn)) /\
      d_kex_ok d = true /\
      (* the voucher: all announced entries fetched in order, header MAC under the device secret, manufacturer key hash
         of the credential, entry chain, owner = key of the last entry *)
      fetch_entries O_der O_rfc 0 (Z.to_nat num) resps = Some es /\
      verify_header O_hmac (d_secret d) ovh hm = Ok tt /\
      verify_mfg_key O_hash ovh (d_kalg d) (d_kval d) = Ok tt /\
      verify_entries O_der O_rfc O_verify O_hash O_pubkey ovh hm es = Ok tt /\
      owner_key O_pubkey ovh es = Ok k /\
      (* a rendezvous blob, when supplied, is signed by that same key *)
      match to1d with
      | None => True
      | Some tb => exists tprot u tpl tsig,
          unm ty_to1d_sign1 tb = Ok (VList [VMap tprot; u; tpl; VBytes tsig]) /\
          sign1_verify O_der O_rfc O_verify ty_to1d TBytes k tprot (match tpl with VNull => None | x => Some x end) None tsig (VBytes []) = Ok true
      end.

  Theorem verify_owner_sound d t61 b61 resps to1d k pdn :
    verify_owner d (t61, b61) resps to1d = Proceed k pdn -> t61 = 61%N /\ checked d b61 resps to1d k pdn.
  Proof.
    unfold Device.verify_owner. intros H. inv_run H.
    all: match goal with X : pubkey_eqb _ _ = true |- _ => apply pubkey_eqb_eq in X end.
    all: injection H as <- <-; subst; split; [reflexivity|].
    all: unfold checked; do 14 eexists; repeat split; eauto 8.
  Qed.

  (* conversely, when every check holds the device goes on: [checked] is exactly the device's criterion *)
  Theorem verify_owner_complete d b61 resps to1d k pdn :
    k <> PubOther ->
    checked d b61 resps to1d k pdn -> verify_owner d (61%N, b61) resps to1d = Proceed k pdn.
  Proof.
    intros NK (prot & unprot & sig & ovh & num & hm & si & xa & halg & hval & mx & hh & pk & es & H).
    cbn zeta in H. destruct H as (E61 & HA & HH & PK & OK & SV & PN & KX & FE & VH & VM & VE & OWN & T1).
    unfold Device.verify_owner. cbn [N.eqb Pos.eqb negb]. rewrite E61. rewrite HA. rewrite HH, bytes_eqb_refl. cbn [negb].
    rewrite PK, OK, SV. rewrite bytes_eqb_refl. cbn [negb]. rewrite PN, KX. cbn [negb]. rewrite FE.
    rewrite VH, VM, VE. cbn [is_ok negb]. rewrite OWN. rewrite (pubkey_eqb_refl k NK). cbn [negb].
    destruct to1d as [tb|]; [|reflexivity].
    destruct T1 as (tprot & u & tpl & tsig & ET & ST). rewrite ET, ST. reflexivity.
  Qed.
End Facts.
