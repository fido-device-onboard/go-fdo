(* RoundTrip.v — decoding what the encoder wrote gives the value back, for every value that is wf (RoundTripWf.v;
   its checker wfb: RoundTripCheck.v; sufficient conditions for its semantic clauses: RoundTripSuff.v, RoundTripRaw.v).
   [reads_as D b x]: the fuelled decoder D reads b as x and stops there, from a fuel on that does not depend on what
   follows b.  The lemmas reads_* say what dec makes of each shape the encoder writes, given that its parts are read
   back; they are facts about the decoder alone.  dec_enc_reads is then an induction on the encoder's fuel with one
   case per constructor of wf, and dec_enc, dec_enc_fuel_for, unmarshal_enc, enc_injective are read off it.
   No normalisation of values is needed: `val` already identifies nil and empty slices/maps/byte strings.

   SIDE CONDITIONS (= the constructors of wf, RoundTripWf.v).  `d` is the decoder's nesting depth.
   Each line: condition  --  where one can be run, a value violating it that does not round-trip (Examples cx_* below, by
   evaluation, or from dec_refuses where a length limit is the reason; "rt t v" = unmarshal (enc t v)).

   The ones one expects
    S1  TInt k: kind_min k <= z <= kind_max k; TAny ints, TLabel ints, TTimestamp in int64.
          cx_int_range:  rt (TInt KU8) (VInt 256) = Err EType;  cx_any_int: rt TAny (VInt 2^63) = Err EType
    S2  TBytes/TText/TBWBytes/TDer/TLabel-text/TAny strings: length < 100000; lists: length < 100000; maps: size < 50000.
          cx_len: rt TBytes (VBytes (100000 zero bytes)) = Err ETooLong
    S3  TFixed n: exactly n bytes.      cx_fixed: rt (TFixed 4) (VBytes [1;2]) = Ok (VBytes [1;2;0;0])
    S4  arrays/maps (TSlice, TStruct, TMap, TAny list/map): d < max_depth, children at depth d+1
        (also required of EMPTY containers: the depth test precedes the length).  Depth restarts at 0 inside
        TTag, TTagged, TBstr, TProtHdr payloads.
          cx_depth: 129 nested one-element slices at d = 0 give Err ETooLong (128 levels round-trip: ex_depth128)
    S5  TPtr t: VNull, or a value v of t with ptr_okb t v: t is not itself TPtr, v <> VNull, and if t = TRaw the raw
        bytes do not start with 0xf6/0xf7 (for every other pointee the first byte is never a null head: enc_first).
          cx_ptr_ptr: rt (TPtr (TPtr TBool)) (VBool true) = Err EType;  cx_ptr_raw: rt (TPtr TRaw) (VRaw [0xf6]) = Ok VNull
    S6  TStruct fs, VList l: zip3 fs l = Some z (one value per field) and
          (a) select_fields fs (length (omit_pass z)) = Ok (enc_mask z): the decoder's choice of the dropped field agrees
              with what the encoder's omitempty pass did.  Sufficient: at most one omitempty field
              (RoundTripSuff.one_om_select).  It is weaker than that: a second omitempty field directly after an
              omitted one is fine (neither side examines it: ex_two_om).
                cx_two_om:  fs = [(om,u8);(om,u8)], l = [1;0]  decodes as [0;1]
                cx_two_om': fs = [(om,u8);(_,bool);(om,u8)], l = [0;true;0]  gives Err EType
          (b) omitted_zero z: every field the encoder omits holds zero_val of its type (is_empty_val is coarser than
              "is the zero value": an omitempty *T pointing at 0, or an `any` holding 0, is dropped and comes back nil).
                cx_omit_ptr: fs = [(om, TPtr u8)], l = [VInt 0] decodes as [VNull];  cx_omit_any likewise for TAny
          (c) only the fields that are actually encoded need to be wf (at depth d+1).
    S7  maps (TMap, TAny map): keys pairwise distinct (distinct_from; implied by NoDup of keys, RoundTripSuff.distinct_from_NoDup);
        TAny keys (also TMap TAny _) are VInt/VText/VBool; the list is in encoder order (pairs_sorted: kv_sort of the
        encoded pairs is the identity).
          cx_dup_key: [(1,2);(1,3)] -> [(1,3)];  cx_unsorted: [(2,_);(1,_)] -> [(1,_);(2,_)];  cx_any_key: bytes key -> Err EType
    S8  VRaw a (TRaw, and TAny's VTag n (VRaw a)): raw_item d a, i.e. exists f, dec_raw f d a = Ok (a, []).
          cx_raw_two: rt TRaw (VRaw [1;2]) = Err ETrailing;  cx_raw_empty: rt TRaw (VRaw []) = Err EEOF
    S9  TLabel: VInt z with z <> 0 (IntOrStr{0,""} is the text form), or VText.   cx_label0: rt TLabel (VInt 0) = Ok (VText [])
    S10 TDer: VNull or VBytes a with O_der csr a = true (hypothesis inside wf_der).  cx_der: oracle rejecting -> Err EOther
    S11 TTimestamp: VNull or VInt z, z <> zero_time_unix.    cx_ts_zero: rt TTimestamp (VInt zero_time_unix) = Ok VNull

   The less obvious ones (the proof does not go through without them)
    F1  TFixed n needs n < 100000 (a [100000]byte array cannot be decoded at all).       cx_fixed_big
    F2  tag numbers (TTag, TTagged, TAny tags) must be < 2^64: `head` truncates.          cx_tag_big: tag 2^64+1 comes back as 1
    F3  TTagged n t (Sign1Tag/Mac0Tag/Encrypt0Tag): besides wf 0 t v, the WHOLE encoding must be a raw item at depth d
        (enc_sat (TTagged n t) v (raw_item d)) because the decoder first cuts the raw extent with dec_raw, which
        (i) counts the tag itself and every array/map/tag level from d without restarting, and
        (ii) applies the 100000 limit to every byte/text string, including TBstr payloads, which the typed decoder does
        not limit.  TTag has neither restriction.
          cx_tagged_depth: TTagged 18 over 128 nested slices fails (TTag over the same value round-trips: ex_tag_depth;
                           127 levels under TTagged are fine: ex_tagged_127)
          cx_tagged_bstr:  TTagged 18 (TBstr TAny) over a 120 KB map fails, TBstr TAny alone round-trips (ex_bstr_big)
        Structural sufficient condition: RoundTripRaw.wf_tagged_rw
          n < 2^64 -> wf 0 t v -> d < max_depth -> rw (S d) t v -> wf d (TTagged n t) v
        where rw counts depth the way dec_raw does (theorem enc_raw_item: rw d t v -> enc fe t v = Ok b -> b is a raw item at d).
    F4  TBstr t: encoded payload shorter than 2^63 bytes (enc_sat ...); no 100000 limit here.  (No executable
        counterexample: it would need 2^63 bytes.  The condition is what `if 9223372036854775807 <? n` in dec demands.)
    F5  TProtHdr: VMap [] or a non-empty map that is wf as TMap TLabel TAny at depth 0 AND whose encoding is shorter than
        100000 bytes (it is read through dec TBytes).           cx_prot_big
    F6  TMap TAny tv: keys restricted like TAny maps (key_pred).  cx_map_any_key: key VNull -> Err EType
    F7  The three "semantic" conditions (pairs_sorted, enc_sat of F3-F5) quantify over the encoder's result; enc is
        deterministic across fuels (enc_det), so the checker wfb evaluates them with one run of enc.
*)
From FDO Require Import Cbor.Typed Cbor.DecFacts.
From FDO Require Import Cbor.Canon Cbor.RoundTripMono Cbor.RoundTripHead Cbor.RoundTripWf Cbor.RoundTripCheck.
Local Open Scope nat_scope.

(* "for all large enough fuel" *)
Definition ev (P : nat -> Prop) : Prop := exists f0, forall f, f0 <= f -> P f.

Lemma ev_all (P : nat -> Prop) : (forall f, P f) -> ev P.
Proof. exists 0. intros; apply H. Qed.
Lemma ev_and (P Q : nat -> Prop) : ev P -> ev Q -> ev (fun f => P f /\ Q f).
Proof.
  intros [f1 H1] [f2 H2]. exists (Nat.max f1 f2).  split; [apply H1|apply H2]; lia.
Qed.
Lemma ev_imp (P Q : nat -> Prop) : (forall f, P f -> Q f) -> ev P -> ev Q.
Proof. intros H [f0 H0]. exists f0. intros f Hf. apply H, H0, Hf. Qed.
Lemma ev_S (P Q : nat -> Prop) : (forall f, P f -> Q (S f)) -> ev P -> ev Q.
Proof.
  intros H [f0 H0]. exists (S f0). intros f Hf. destruct f as [|f]; [lia|]. apply H, H0. lia.
Qed.
Lemma ev_S0 (Q : nat -> Prop) : (forall f, Q (S f)) -> ev Q.
Proof. intros H. apply (ev_S (fun _ => True)); [auto|now apply ev_all]. Qed.

(* the fuelled decoder D reads b as x and stops there, whatever follows b (which has no say in the fuel needed) *)
Definition reads_as {A} (D : nat -> bytes -> outcome (A * bytes)) (b : bytes) (x : A) : Prop :=
  ev (fun f => forall r, D f (b ++ r) = Ok (x, r)).

Lemma reads_at {A} D b (x : A) : reads_as D b x -> forall r, exists f0, forall f, f0 <= f -> D f (b ++ r) = Ok (x, r).
Proof. intros [f0 H] r. exists f0. intros f Hf. now apply H. Qed.

(* sequences of items that are read back one by one *)
Lemma reads_seq_n {A} (D : nat -> bytes -> outcome (A * bytes)) (l : list A) (bs : list bytes) :
  Forall2 (fun x b => reads_as D b x) l bs -> reads_as (fun f => seq_n (D f) (length l)) (concat bs) l.
Proof.
  induction 1 as [|x b l bs Hx _ IH].
  - now apply ev_all.
  - refine (ev_imp _ _ _ (ev_and _ _ Hx IH)). intros f [E1 E2] r.
    cbn [concat length seq_n]. rewrite <- app_assoc, E1. cbn [bind]. now rewrite E2.
Qed.

Lemma reads_seq_fields (D : nat -> ty -> bytes -> outcome (val * bytes)) z : forall bs,
  Forall2 (fun tv b => reads_as (fun f => D f (fst tv)) b (snd tv)) (omit_pass z) bs -> omitted_zero z ->
  reads_as (fun f => seq_fields (D f) (enc_mask z)) (concat bs) (map snd z).
Proof.
  induction z as [|[[om t] v] z IH1 IH2] using list_ind2; intros bs HF HZ; [inversion HF; now apply ev_all|].
  cbn [omit_pass enc_mask omitted_zero map snd] in *. destruct (om && is_empty_val v).
  - destruct HZ as [-> HZ]. destruct z as [|[[om' t'] v'] z]; [inversion HF; now apply ev_all|].
    inversion HF as [|? b ? bs' Hb HF']. cbn [tl] in IH2.
    refine (ev_imp _ _ _ (ev_and _ _ Hb (IH2 _ HF' HZ))). intros f [E1 E2] r.
    cbn [concat map snd seq_fields]. rewrite <- app_assoc, E1. cbn [bind]. now rewrite E2.
  - inversion HF as [|? b ? bs' Hb HF'].
    refine (ev_imp _ _ _ (ev_and _ _ Hb (IH1 _ HF' HZ))). intros f [E1 E2] r.
    cbn [concat seq_fields]. rewrite <- app_assoc, E1. cbn [bind]. now rewrite E2.
Qed.

Lemma map_insert_fresh k v acc :
  forallb (fun kv => negb (val_eqb k (fst kv))) acc = true -> map_insert k v acc = acc ++ [(k, v)].
Proof.
  induction acc as [|[k' v'] acc IH]; cbn [forallb map_insert app fst]; [reflexivity|].
  intros [->%negb_true_iff H]%andb_true_iff. now rewrite IH.
Qed.

Lemma reads_seq_pairs (DK DV : nat -> bytes -> outcome (val * bytes)) ok (m : list (val * val)) (kvs : list (bytes * bytes)) :
  Forall2 (fun kv e => reads_as DK (fst e) (fst kv) /\ reads_as DV (snd e) (snd kv) /\ ok (fst kv) = true) m kvs ->
  forall acc, distinct_from acc m = true ->
  reads_as (fun f => seq_pairs (DK f) (DV f) ok (length m) acc) (concat (map (fun kv => fst kv ++ snd kv) kvs)) (acc ++ m).
Proof.
  induction 1 as [|[k v] [ek ex] m kvs (Hk & Hv & Hok) _ IH]; intros acc Hd.
  - apply ev_all. intros r. cbn. now rewrite app_nil_r.
  - cbn [fst snd distinct_from] in *. apply andb_true_iff in Hd as [Hd1 Hd2].
    refine (ev_imp _ _ _ (ev_and _ _ Hk (ev_and _ _ Hv (IH _ Hd2)))). intros f (E1 & E2 & E3) r.
    cbn [map concat length seq_pairs fst snd]. rewrite <- !app_assoc, E1. cbn [bind]. rewrite E2. cbn [bind].
    now rewrite Hok, (map_insert_fresh _ _ _ Hd1), E3, <- app_assoc.
Qed.

(* what the raw scanner makes of the leaves the encoder writes (arrays, maps and tags: RoundTripRaw.v) *)
Definition intraw (z : Z) : Prop := (-18446744073709551616 <= z < 18446744073709551616)%Z.
Definition short (a : bytes) : Prop := (N.of_nat (length a) < 100000)%N.
Definition raw_ev (d : nat) (b : bytes) : Prop := reads_as (fun f => dec_raw f d) b b.

Lemma int64_intraw z : int64_ok z -> intraw z.
Proof. unfold int64_ok, intraw. cbn [kind_min kind_max]. lia. Qed.

Lemma raw_ev_iff d a : raw_ev d a <-> raw_item d a.
Proof.
  split.
  - intros [f0 H0]. exists f0. rewrite <- (app_nil_r a) at 1. now apply H0.
  - intros [f0 E]. exists f0. intros f Hf r. apply (dec_raw_stable _ _ d _ r _ _ (le_n d)) in E.
    eapply dec_raw_mono; [exact E|discriminate|exact Hf].
Qed.

Lemma raw_ev_int d z : intraw z -> raw_ev d (enc_int z).
Proof.
  unfold intraw. intros Hz. apply ev_S0. intros f r. unfold enc_int. cbn [dec_raw].
  now destruct (z <? 0)%Z; read_back.
Qed.

Lemma raw_ev_simple d ai : (ai < 24)%N -> raw_ev d [byte_of_N (224 + ai)].
Proof. intros Hai. apply ev_S0. intros f r. cbn [app dec_raw]. now rewrite read_head_simple. Qed.

Lemma raw_ev_str d mt a : mt = 2%N \/ mt = 3%N -> short a -> raw_ev d (head mt (N.of_nat (length a)) ++ a).
Proof.
  intros Hmt Hl. apply ev_S0. intros f r. rewrite <- app_assoc. cbn [dec_raw].
  destruct Hmt as [-> | ->]; read_back; rewrite decode_len_of by easy; cbn [bind N.eqb Pos.eqb];
    now rewrite Nat2N.id, take_o_app.
Qed.

(* the first byte is not the one-byte head of null or undefined, which a decoder for a pointer takes for nil *)
Definition starts_non_null (b : bytes) : Prop := match b with x :: _ => null_byte x = false | [] => False end.

(* a non-nil pointee that is not itself a pointer is written with such a first byte (for raw bytes ptr_okb demands it) *)
Lemma enc_first O_der fe d t v b : wf O_der d t v -> ptr_okb t v = true -> enc fe t v = Ok b -> starts_non_null b.
Proof.
  destruct fe as [|fe]; [discriminate|]. intros Hwf.
  destruct Hwf; try discriminate; intros Hp; rewrite ?enc_tagged;
    cbn [enc]; unfold enc_int; repeat dstep; intros [= <-];
    repeat match goal with |- context [if ?c then _ else _] => destruct c end;
    rewrite ?head_eq; cbn [app starts_non_null]; try reflexivity; try (apply null_byte_head; lia).
  destruct a as [|x a]; [discriminate|]. now apply negb_true_iff in Hp.
Qed.

Section RT.
  Variable O_der : bool -> bytes -> bool.
  Variable O_rfc : bytes -> option Z.
  Notation dec := (dec O_der O_rfc).
  Notation wf := (wf O_der).
  Notation rt d t := (reads_as (fun f => dec f d t)).

  (* what the typed decoder makes of the shapes the encoder writes *)
  Lemma reads_int d t k z :
    t = TInt k \/ t = TAny /\ k = KI64 -> (kind_min k <= z <= kind_max k)%Z -> rt d t (enc_int z) (VInt z).
  Proof.
    intros Ht [Hz1 Hz2]. apply ev_S0. intros f r. unfold enc_int.
    assert (Hk : (- 9223372036854775808 <= kind_min k /\ kind_max k < 18446744073709551616)%Z) by (destruct k; cbn; lia).
    destruct (Z.ltb_spec z 0).
    - assert (Hs : kind_signed k = true) by (destruct k; cbn in *; trivial; lia).
      destruct Ht as [-> | [-> ->]]; cbn [Typed.dec]; read_back; unfold dec_negative; rewrite ?Hs;
        replace (- Z.of_N (Z.to_N (- z - 1)) - 1)%Z with z by lia; now rewrite (proj2 (Z.ltb_ge _ _) Hz1).
    - destruct Ht as [-> | [-> ->]]; cbn [Typed.dec]; read_back; unfold dec_positive; rewrite Z2N.id by lia;
        now rewrite (proj2 (Z.ltb_ge _ _) Hz2).
  Qed.

  Lemma reads_bool d t (bv : bool) :
    t = TBool \/ t = TAny -> rt d t [byte_of_N (if bv then 245 else 244)%N] (VBool bv).
  Proof.
    intros Ht. apply ev_S0. intros f r. cbn [app].
    destruct Ht as [-> | ->]; cbn [Typed.dec];
      (destruct bv; [change 245%N with (224 + 21)%N | change 244%N with (224 + 20)%N]; now rewrite read_head_simple).
  Qed.

  Lemma reads_null d t :
    match t with TPtr _ | TAny | TDer _ | TTimestamp => True | _ => False end -> rt d t [byte_of_N 246] VNull.
  Proof.
    intros Ht. apply ev_S0. intros f r. cbn [app]. change 246%N with (224 + 22)%N.
    destruct t; try contradiction; cbn [Typed.dec]; now rewrite read_head_simple.
  Qed.

  (* byte and text strings, at every type that holds one *)
  Lemma reads_str d t mt a v :
    short a ->
    match t, mt, v with
    | TBytes, 2%N, VBytes a' | TAny, 2%N, VBytes a' | TBWBytes, 2%N, VBytes a'
    | TText, 3%N, VText a' | TAny, 3%N, VText a' => a' = a
    | TFixed n, 2%N, VBytes a' => a' = a /\ length a = n
    | TDer csr, 2%N, VBytes a' => a' = a /\ O_der csr a = true
    | _, _, _ => False
    end ->
    rt d t (head mt (N.of_nat (length a)) ++ a) v.
  Proof.
    unfold short. intros Hl Hv. apply ev_S0. intros f r. rewrite <- app_assoc. pose proof (proj2 (N.leb_gt max_len _) Hl) as Hm.
    destruct t; try contradiction; destruct mt as [|[[[]|[]|]|[[]|[]|]|]]; try contradiction; destruct v; try contradiction;
      cbn [Typed.dec]; read_back; unfold dec_string; autorewrite with hd; rewrite Hm, Nat2N.id, take_o_app; cbn [bind].
    all: try now subst.
    - destruct Hv as [-> <-]. now rewrite Nat.ltb_irrefl, Nat.sub_diag, app_nil_r.
    - now destruct Hv as [-> ->].
  Qed.

  Lemma reads_raw d a : raw_item d a -> rt d TRaw a (VRaw a).
  Proof. intros H%raw_ev_iff. refine (ev_S _ _ _ H). intros f E r. cbn [Typed.dec]. now rewrite E. Qed.

  Lemma reads_any_tag d n a : (n < two64)%N -> raw_item d a -> rt d TAny (head 6 n ++ a) (VTag n (VRaw a)).
  Proof.
    intros Hn H%raw_ev_iff. refine (ev_S _ _ _ H). intros f E r.
    rewrite <- app_assoc. cbn [Typed.dec]. read_back. now rewrite E.
  Qed.

  (* cose.IntOrStr: the raw extent is cut first and then decoded as `any` *)
  Lemma reads_label d b v :
    raw_ev d b -> rt 0 TAny b v -> match v with VInt z => z <> 0%Z | VText _ => True | _ => False end ->
    rt d TLabel b v.
  Proof.
    intros Hr Hv Hl. refine (ev_S _ _ _ (ev_and _ _ Hr Hv)). intros f [E1 E2] r. specialize (E2 []). rewrite app_nil_r in E2.
    cbn [Typed.dec]. rewrite E1. cbn [bind]. rewrite E2. cbn [bind].
    destruct v; try contradiction; [now apply Z.eqb_neq in Hl as ->|reflexivity].
  Qed.

  Lemma reads_ts d z : int64_ok z -> z <> zero_time_unix -> rt d TTimestamp (head 6 1 ++ enc_int z) (VInt z).
  Proof.
    intros Hi Hz. refine (ev_S _ _ _ (reads_int 0 (TInt KI64) KI64 z (or_introl eq_refl) Hi)). intros f E r.
    rewrite <- app_assoc. cbn [Typed.dec]. read_back. rewrite E. cbn [bind]. now apply Z.eqb_neq in Hz as ->.
  Qed.

  Lemma reads_list d t te l bs :
    t = TSlice te \/ t = TAny /\ te = TAny -> d < max_depth -> (N.of_nat (length l) < 100000)%N ->
    Forall2 (fun v b => rt (S d) te b v) l bs ->
    rt d t (head 4 (N.of_nat (length l)) ++ concat bs) (VList l).
  Proof.
    intros Ht Hd Hl HF. refine (ev_S _ _ _ (reads_seq_n (fun f => dec f (S d) te) l bs HF)). intros f E r.
    rewrite <- app_assoc. apply N.leb_gt in Hl.
    destruct Ht as [-> | [-> ->]]; cbn [Typed.dec]; read_back; fold max_len in Hl;
      now rewrite (not_deep _ Hd), Hl, Nat2N.id, E.
  Qed.

  Lemma reads_struct d fs l z bs :
    d < max_depth -> zip3 fs l = Some z -> (N.of_nat (length (omit_pass z)) < 100000)%N ->
    select_fields fs (length (omit_pass z)) = Ok (enc_mask z) -> omitted_zero z ->
    Forall2 (fun tv b => rt (S d) (fst tv) b (snd tv)) (omit_pass z) bs ->
    rt d (TStruct fs) (head 4 (N.of_nat (length (omit_pass z))) ++ concat bs) (VList l).
  Proof.
    intros Hd Hz Hl Hsel Hoz HF. destruct (zip3_spec _ _ _ Hz) as [_ ->].
    refine (ev_S _ _ _ (reads_seq_fields (fun f => dec f (S d)) z bs HF Hoz)). intros f E r.
    rewrite <- app_assoc. apply N.leb_gt in Hl. cbn [Typed.dec]. read_back. fold max_len in Hl.
    rewrite (not_deep _ Hd), Hl, Nat2N.id, Hsel. cbn [bind]. now rewrite E.
  Qed.

  Lemma reads_map d t tk tv m kvs :
    t = TMap tk tv \/ t = TAny /\ tk = TAny /\ tv = TAny -> d < max_depth -> (N.of_nat (length m) < 50000)%N ->
    Forall2 (fun kv e => rt (S d) tk (fst e) (fst kv) /\ rt (S d) tv (snd e) (snd kv) /\ key_pred tk (fst kv) = true) m kvs ->
    distinct_from [] m = true ->
    rt d t (head 5 (N.of_nat (length m)) ++ concat (map (fun kv => fst kv ++ snd kv) kvs)) (VMap m).
  Proof.
    intros Ht Hd Hl HF Hdist.
    refine (ev_S _ _ _ (reads_seq_pairs (fun f => dec f (S d) tk) (fun f => dec f (S d) tv) _ m kvs HF [] Hdist)).
    intros f E r. unfold key_pred in E. rewrite <- app_assoc. apply N.leb_gt in Hl.
    destruct Ht as [-> | (-> & -> & ->)]; cbn [Typed.dec]; read_back; now rewrite (not_deep _ Hd), Hl, Nat2N.id, E.
  Qed.

  (* a pointer is nil exactly when the item starts with a null head; otherwise the pointee is decoded in place *)
  Lemma reads_ptr d t b v : (forall t', t <> TPtr t') -> starts_non_null b -> rt d t b v -> rt d (TPtr t) b v.
  Proof.
    intros Ht Hb H. refine (ev_S _ _ _ H). intros f E r. specialize (E r).
    destruct b as [|x b]; [contradiction|]. destruct (dec_consumes _ _ _ _ _ _ _ _ E) as (h & r0 & EH & _).
    cbn [Typed.dec]. rewrite EH. cbn [bind]. rewrite (read_head_null_byte _ _ _ _ EH), Hb.
    destruct t; try exact E. now destruct (Ht t).
  Qed.

  Lemma reads_tag d t n a v : (n < two64)%N -> rt 0 t a v -> rt d (TTag t) (head 6 n ++ a) (VTag n v).
  Proof.
    intros Hn H. refine (ev_S _ _ _ H). intros f E r.
    rewrite <- app_assoc. cbn [Typed.dec]. read_back. now rewrite E.
  Qed.

  (* Sign1Tag, Mac0Tag, Encrypt0Tag: the raw extent is cut first, then decoded on its own *)
  Lemma reads_tagged d n t a v :
    (n < two64)%N -> raw_item d (head 6 n ++ a) -> rt 0 t a v -> rt d (TTagged n t) (head 6 n ++ a) v.
  Proof.
    intros Hn Hr%raw_ev_iff H. refine (ev_S _ _ _ (ev_and _ _ Hr H)). intros f [E1 E2] r. specialize (E2 []). rewrite app_nil_r in E2.
    cbn [Typed.dec]. rewrite E1. cbn [bind]. read_back. rewrite E2. cbn [bind]. now rewrite N.eqb_refl.
  Qed.

  Lemma reads_bstr d t a v :
    (N.of_nat (length a) <= 9223372036854775807)%N -> rt 0 t a v ->
    rt d (TBstr t) (head 2 (N.of_nat (length a)) ++ a) v.
  Proof.
    intros Hl H. refine (ev_S _ _ _ H). intros f E r. specialize (E []). rewrite app_nil_r in E. apply N.ltb_ge in Hl.
    rewrite <- app_assoc. cbn [Typed.dec]. read_back. rewrite Hl, split_limit_app, E. cbn [bind length].
    now rewrite Nat.sub_0_r, N.eqb_refl.
  Qed.

  Lemma reads_prot_empty d : rt d TProtHdr [byte_of_N 64] (VMap []).
  Proof.
    change [byte_of_N 64] with (head 2 (N.of_nat (length (@nil byte))) ++ []).
    refine (ev_S _ _ _ (reads_str 0 TBytes 2%N [] (VBytes []) eq_refl eq_refl)).
    intros f E r. cbn [Typed.dec]. now rewrite E.
  Qed.

  Lemma reads_prot d a m :
    short a -> rt 0 (TMap TLabel TAny) a (VMap m) -> rt d TProtHdr (head 2 (N.of_nat (length a)) ++ a) (VMap m).
  Proof.
    intros Hl H. refine (ev_S _ _ _ (ev_and _ _ (reads_str 0 TBytes 2%N a (VBytes a) Hl eq_refl) H)).
    intros f [E1 E2] r. specialize (E2 []). rewrite app_nil_r in E2. cbn [Typed.dec]. rewrite E1. cbn [bind].
    pose proof (dec_strict _ _ _ _ _ _ _ _ E2) as Hs. destruct a; [cbn in Hs; lia|]. now rewrite E2.
  Qed.

  (* induction on the encoder's fuel; the cases are the constructors of wf; each is closed by the lemma for its shape,
     the parts being read back by the induction hypothesis *)
  Theorem dec_enc_reads fe : forall d t v b, wf d t v -> enc fe t v = Ok b -> rt d t b v.
  Proof.
    induction fe as [|fe IH]; intros d t v b Hwf; [discriminate|].
    destruct Hwf; unfold enc_sat, pairs_sorted in *;
      rewrite ?enc_tagged; erewrite ?enc_struct by eassumption;
      rewrite ?enc_ptr by (eapply proj1, ptr_okb_spec; eassumption); cbn [enc].
    all: try (intros [= <-];
              first [simple eapply reads_int | simple apply reads_bool | simple apply reads_null | simple apply reads_str
                    | simple apply reads_raw | simple apply reads_any_tag | simple apply reads_prot_empty]; now auto).
    - (* TFixed *) intros [= <-]. subst. now apply reads_str.
    - (* TSlice *) intros (bs & EM & [= <-])%bind_Ok_inv. eapply reads_list; eauto.
      eapply mapM_Forall2; [|eassumption..]. apply IH.
    - (* TPtr *) intros Henc. eapply reads_ptr; eauto using enc_first. eapply ptr_okb_spec; eassumption.
    - (* TStruct *) intros (bs & EM & [= <-])%bind_Ok_inv. eapply reads_struct; eauto.
      eapply mapM_Forall2; [|eassumption..]. intros ? ?; apply IH.
    - (* TMap *) intros (kvs & EM & [= <-])%bind_Ok_inv. assert (kv_sort kvs = kvs) as -> by eauto. eapply reads_map; eauto.
      eapply mapM_Forall2; [|eassumption..]. intros kv e (W1 & W2 & W3) [E1 E2]%enc_pair_Ok. eauto.
    - (* TAny, a list *) intros (bs & EM & [= <-])%bind_Ok_inv. eapply reads_list; eauto.
      eapply mapM_Forall2; [|eassumption..]. apply IH.
    - (* TAny, a map *) intros (kvs & EM & [= <-])%bind_Ok_inv. assert (kv_sort kvs = kvs) as -> by eauto. eapply reads_map; eauto.
      eapply mapM_Forall2; [|eassumption..]. intros kv e (W1 & W2 & W3) [E1 E2]%enc_pair_Ok. eauto.
    - (* TTag *) intros (a & EA & [= <-])%bind_Ok_inv. apply reads_tag; eauto.
    - (* TTagged *) intros Henc. pose proof Henc as (a & EA & [= <-])%bind_Ok_inv. rewrite <- enc_tagged in Henc.
      apply reads_tagged; eauto.
    - (* TBstr *) intros (a & EA & [= <-])%bind_Ok_inv. apply reads_bstr; eauto.
    - (* TLabel, an integer *) destruct (Z.eqb_spec z 0); [contradiction|]. intros [= <-]. apply reads_label; eauto using raw_ev_int, int64_intraw, reads_int.
    - (* TLabel, a text *) intros [= <-]. apply reads_label; eauto using raw_ev_str, reads_str.
    - (* TProtHdr *) destruct m; [contradiction|]. intros (a & EA & [= <-])%bind_Ok_inv. apply reads_prot; unfold short; eauto.
    - (* TTimestamp *) intros [= <-]. now apply reads_ts.
  Qed.

  Theorem dec_enc fe : forall d t v b,
    wf d t v -> enc fe t v = Ok b ->
    forall r, exists f0, forall f, f0 <= f -> dec f d t (b ++ r) = Ok (v, r).
  Proof. intros d t v b Hwf Henc. exact (reads_at _ _ _ (dec_enc_reads fe d t v b Hwf Henc)). Qed.

  Theorem dec_enc_fuel_for fe t v b :
    wf 0 t v -> enc fe t v = Ok b ->
    forall r, dec (fuel_for (b ++ r)) 0 t (b ++ r) = Ok (v, r).
  Proof.
    intros Hw He r. destruct (dec_enc fe 0 t v b Hw He r) as [f0 H0].
    pose proof (dec_fuel_for_total O_der O_rfc t (b ++ r)) as T.
    rewrite <- (H0 (Nat.max f0 (fuel_for (b ++ r)))) by lia. symmetry.
    eapply dec_mono; [reflexivity| |lia]. intros E. now rewrite E in T.
  Qed.

  Theorem unmarshal_enc fe t v b :
    wf 0 t v -> enc fe t v = Ok b -> unmarshal O_der O_rfc t b = Ok v.
  Proof.
    intros Hw He. unfold unmarshal. pose proof (dec_enc_fuel_for fe t v b Hw He []) as E.
    rewrite app_nil_r in E. rewrite E. reflexivity.
  Qed.
End RT.

Theorem enc_injective O_der d t v1 v2 fe fe' b :
  wf O_der d t v1 -> wf O_der d t v2 -> enc fe t v1 = Ok b -> enc fe' t v2 = Ok b -> v1 = v2.
Proof.
  intros W1 W2 E1 E2.
  destruct (ev_and _ _ (dec_enc_reads O_der (fun _ => None) fe d t v1 b W1 E1)
                       (dec_enc_reads O_der (fun _ => None) fe' d t v2 b W2 E2)) as [f H].
  destruct (H f (le_n f)) as [A1 A2]. specialize (A1 []).  congruence.
Qed.

(* concrete values: some that are wf and round-trip (non-vacuity), and for each side condition that can be run one that
   violates it and does not *)
Module Examples.
  Definition OD : bool -> bytes -> bool := fun _ _ => true.
  Definition OR : bytes -> option Z := fun _ => None.
  Definition tx (s : list nat) : bytes := map (fun n => byte_of_N (N.of_nat n)) s.

  Definition rt (t : ty) (v : val) : outcome val :=
    match enc 400 t v with Ok b => unmarshal OD OR t b | Err e => Err e | Panic p => Panic p | OutOfFuel => OutOfFuel end.
  Definition rt_okb (t : ty) (v : val) : bool :=
    match rt t v with Ok v' => val_eqb v' v | _ => false end.
  Lemma rt_okb_spec t v : rt_okb t v = true -> exists b, enc 400 t v = Ok b /\ unmarshal OD OR t b = Ok v.
  Proof.
    unfold rt_okb, rt. destruct (enc 400 t v) as [b| | |]; try discriminate.
    destruct (unmarshal OD OR t b) as [v'| | |] eqn:EU; try discriminate.
    intros H. apply val_eqb_eq in H. subst. exists b. now split.
  Qed.

  (* wf at depth 0, and unmarshal (enc v) = v  (boolean form so that big values stay inside vm_compute) *)
  Definition round_trips (t : ty) (v : val) : Prop := wf OD 0 t v /\ rt_okb t v = true.
  Ltac rt_ok := split; [apply (wfb_sound OD 400); vm_compute; reflexivity | vm_compute; reflexivity].

  Definition st1 := TStruct [(false, TInt KU8); (true, TText); (false, TBool)].
  Example ex_struct_omit : round_trips st1 (VList [VInt 5; VText []; VBool true]).
  Proof. rt_ok. Qed.
  Example ex_struct_omit_bytes : enc 10 st1 (VList [VInt 5; VText []; VBool true]) = Ok (tx [130; 5; 245]).
  Proof. vm_compute. reflexivity. Qed.
  Example ex_two_om :
    round_trips (TStruct [(true, TInt KU8); (true, TAny)]) (VList [VInt 0; VInt 0]).
  Proof. rt_ok. Qed.
  Example ex_any_map :
    round_trips TAny (VMap [(VInt 1, VList [VInt 2; VText (tx [97])]);
                            (VText (tx [107]), VMap [(VInt 0, VNull); (VBool true, VBytes (tx [1; 2]))])]).
  Proof. rt_ok. Qed.
  Example ex_ptr : round_trips (TPtr (TInt KI64)) (VInt (-9223372036854775808)).
  Proof. rt_ok. Qed.
  Example ex_ptr_nil : round_trips (TPtr (TInt KI64)) VNull.
  Proof. rt_ok. Qed.
  Example ex_bstr_struct : round_trips (TBstr st1) (VList [VInt 5; VText (tx [104; 105]); VBool false]).
  Proof. rt_ok. Qed.
  Example ex_int64_min : round_trips (TInt KI64) (VInt (-9223372036854775808)).
  Proof. rt_ok. Qed.
  Example ex_tagged : round_trips (TTagged 18 st1) (VList [VInt 5; VText []; VBool true]).
  Proof. rt_ok. Qed.
  Example ex_prot : round_trips TProtHdr (VMap [(VInt 1, VInt (-7)); (VText (tx [97]), VBool true)]).
  Proof. rt_ok. Qed.
  Example ex_ts : round_trips TTimestamp (VInt 1700000000).
  Proof. rt_ok. Qed.
  Example ex_raw : round_trips TRaw (VRaw (tx [130; 1; 161; 2; 3])).
  Proof. rt_ok. Qed.
  Example ex_map_label :
    round_trips (TMap TLabel (TSlice (TPtr TText)))
                (VMap [(VInt 1, VList [VNull; VText (tx [97])]); (VInt (-1), VList [])]).
  Proof. rt_ok. Qed.
  Example ex_any_tag : round_trips TAny (VTag 55799 (VRaw (tx [130; 1; 2]))).
  Proof. rt_ok. Qed.

  Definition nest (k : nat) : ty := Nat.iter k TSlice (TInt KU8).
  Definition nestv (k : nat) : val := Nat.iter k (fun v => VList [v]) (VInt 0).
  Example ex_depth128 : round_trips (nest 128) (nestv 128).
  Proof. rt_ok. Qed.
  Example ex_tag_depth : round_trips (TTag (nest 128)) (VTag 7 (nestv 128)).
  Proof. rt_ok. Qed.
  Example ex_tagged_127 : round_trips (TTagged 18 (nest 127)) (nestv 127).
  Proof. rt_ok. Qed.
  Definition big (n : N) : bytes := repeat x00 (N.to_nat n).
  Definition bigmap := VMap [(VInt 1, VBytes (big 60000)); (VInt 2, VBytes (big 60000))].
  (* checking the 120 kB round trip by evaluation is dear without the bytecode machine (coqchk): here it follows from
     unmarshal_enc, as it does for every wf value that the encoder accepts *)
  Lemma wf_rt_okb t v : wf OD 0 t v -> is_ok (enc 400 t v) = true -> rt_okb t v = true.
  Proof.
    unfold rt_okb, rt. intros W. destruct (enc 400 t v) as [b| | |] eqn:E; try discriminate. intros _.
    rewrite (unmarshal_enc OD OR 400 t v b W E). now apply val_eqb_eq.
  Qed.
  Example ex_bstr_big : round_trips (TBstr TAny) bigmap.
  Proof.
    assert (W : wf OD 0 (TBstr TAny) bigmap) by (apply (wfb_sound OD 400); vm_compute; reflexivity).
    split; [exact W|apply (wf_rt_okb _ _ W); vm_compute; reflexivity].
  Qed.

  (* counterexamples: each violates exactly one side condition and does not round-trip *)
  Ltac cx := vm_compute; reflexivity.

  (* a string of max_len bytes is refused on its head at every plain type (dec_refuses), without looking at the bytes *)
  Lemma long_refused t n :
    generic_ty t = true -> (max_len <= n < two64)%N ->
    unmarshal OD OR t (head 2 (N.of_nat (length (big n))) ++ big n) = Err ETooLong.
  Proof.
    intros G Hn. unfold big at 1. rewrite repeat_length, N2Nat.id. unfold unmarshal, fuel_for. rewrite Nat.add_succ_r.
    erewrite dec_refuses; [reflexivity|exact G|apply read_head_head; lia|].
    left. autorewrite with hd. split; [tauto|apply Hn].
  Qed.

  Example cx_int_range : rt (TInt KU8) (VInt 256) = Err EType. Proof. cx. Qed.
  Example cx_any_int : rt TAny (VInt 9223372036854775808) = Err EType. Proof. cx. Qed.
  Example cx_len : rt TBytes (VBytes (big 100000)) = Err ETooLong. Proof. now apply long_refused. Qed.
  Example cx_fixed : rt (TFixed 4) (VBytes (tx [1; 2])) = Ok (VBytes (tx [1; 2; 0; 0])). Proof. cx. Qed.
  Example cx_fixed_big : rt (TFixed (N.to_nat 100000)) (VBytes (big 100000)) = Err ETooLong.
  Proof. now apply long_refused. Qed.
  Example cx_depth : rt (nest 129) (nestv 129) = Err ETooLong. Proof. cx. Qed.
  Example cx_ptr_ptr : rt (TPtr (TPtr TBool)) (VBool true) = Err EType. Proof. cx. Qed.
  Example cx_ptr_raw : rt (TPtr TRaw) (VRaw (tx [246])) = Ok VNull. Proof. cx. Qed.
  Example cx_two_om :
    rt (TStruct [(true, TInt KU8); (true, TInt KU8)]) (VList [VInt 1; VInt 0]) = Ok (VList [VInt 0; VInt 1]).
  Proof. cx. Qed.
  Example cx_two_om' :
    rt (TStruct [(true, TInt KU8); (false, TBool); (true, TInt KU8)]) (VList [VInt 0; VBool true; VInt 0]) = Err EType.
  Proof. cx. Qed.
  Example cx_omit_ptr : rt (TStruct [(true, TPtr (TInt KU8))]) (VList [VInt 0]) = Ok (VList [VNull]). Proof. cx. Qed.
  Example cx_omit_any : rt (TStruct [(true, TAny)]) (VList [VInt 0]) = Ok (VList [VNull]). Proof. cx. Qed.
  Example cx_dup_key : rt TAny (VMap [(VInt 1, VInt 2); (VInt 1, VInt 3)]) = Ok (VMap [(VInt 1, VInt 3)]). Proof. cx. Qed.
  Example cx_unsorted :
    rt TAny (VMap [(VInt 2, VInt 2); (VInt 1, VInt 3)]) = Ok (VMap [(VInt 1, VInt 3); (VInt 2, VInt 2)]).
  Proof. cx. Qed.
  Example cx_any_key : rt TAny (VMap [(VBytes [], VInt 2)]) = Err EType. Proof. cx. Qed.
  Example cx_map_any_key : rt (TMap TAny TBool) (VMap [(VNull, VBool true)]) = Err EType. Proof. cx. Qed.
  Example cx_raw_two : rt TRaw (VRaw (tx [1; 2])) = Err ETrailing. Proof. cx. Qed.
  Example cx_raw_empty : rt TRaw (VRaw []) = Err EEOF. Proof. cx. Qed.
  Example cx_tag_big :
    rt (TTag TBool) (VTag 18446744073709551617 (VBool true)) = Ok (VTag 1 (VBool true)).
  Proof. cx. Qed.
  Example cx_label0 : rt TLabel (VInt 0) = Ok (VText []). Proof. cx. Qed.
  Example cx_der :
    match enc 10 (TDer false) (VBytes (tx [1])) with
    | Ok b => unmarshal (fun _ _ => false) OR (TDer false) b
    | _ => Err EType
    end = Err EOther.
  Proof. cx. Qed.
  Example cx_ts_zero : rt TTimestamp (VInt zero_time_unix) = Ok VNull. Proof. cx. Qed.
  Example cx_tagged_depth : rt (TTagged 18 (nest 128)) (nestv 128) = Err ETooLong. Proof. cx. Qed.
  Example cx_tagged_bstr : rt (TTagged 18 (TBstr TAny)) bigmap = Err ETooLong. Proof. cx. Qed.
  Example cx_prot_big : rt TProtHdr bigmap = Err ETooLong. Proof. cx. Qed.
  (* ... and the checker rejects every one of them.  For the 100 kB values it need not be run: what the encoder accepts
     and the decoder does not give back is not wf (unmarshal_enc), and the checker is sound *)
  Lemma rejected t v e : rt t v = Err e -> is_ok (enc 400 t v) = true -> wfb OD 400 0 t v = false.
  Proof.
    unfold rt. destruct (enc 400 t v) as [b| | |] eqn:E; try discriminate. intros U _.
    apply not_true_is_false. intros W%wfb_sound. now rewrite (unmarshal_enc OD OR 400 t v b W E) in U.
  Qed.
  Example cx_rejected :
    forallb (fun tv => negb (wfb OD 400 0 (fst tv) (snd tv)))
      [ (TInt KU8, VInt 256); (TAny, VInt 9223372036854775808); (TBytes, VBytes (big 100000));
        (TFixed 4, VBytes (tx [1; 2])); (TFixed (N.to_nat 100000), VBytes (big 100000)); (nest 129, nestv 129);
        (TPtr (TPtr TBool), VBool true); (TPtr TRaw, VRaw (tx [246]));
        (TStruct [(true, TInt KU8); (true, TInt KU8)], VList [VInt 1; VInt 0]);
        (TStruct [(true, TInt KU8); (false, TBool); (true, TInt KU8)], VList [VInt 0; VBool true; VInt 0]);
        (TStruct [(true, TPtr (TInt KU8))], VList [VInt 0]); (TStruct [(true, TAny)], VList [VInt 0]);
        (TAny, VMap [(VInt 1, VInt 2); (VInt 1, VInt 3)]); (TAny, VMap [(VInt 2, VInt 2); (VInt 1, VInt 3)]);
        (TAny, VMap [(VBytes [], VInt 2)]); (TMap TAny TBool, VMap [(VNull, VBool true)]);
        (TRaw, VRaw (tx [1; 2])); (TRaw, VRaw []); (TTag TBool, VTag 18446744073709551617 (VBool true));
        (TLabel, VInt 0); (TTimestamp, VInt zero_time_unix); (TTagged 18 (nest 128), nestv 128);
        (TTagged 18 (TBstr TAny), bigmap); (TProtHdr, bigmap) ] = true.
  Proof.
    cbn [forallb fst snd].
    rewrite (rejected _ _ _ cx_len eq_refl), (rejected _ _ _ cx_fixed_big eq_refl),
            (rejected _ _ _ cx_tagged_bstr eq_refl), (rejected _ _ _ cx_prot_big eq_refl).
    vm_compute. reflexivity.
  Qed.
End Examples.

Print Assumptions dec_enc.
Print Assumptions dec_enc_fuel_for.
Print Assumptions unmarshal_enc.
Print Assumptions enc_injective.
Print Assumptions dec_mono.
Print Assumptions dec_raw_mono.
Print Assumptions Examples.ex_any_map.
