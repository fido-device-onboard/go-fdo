(* RoundTripMono.v — what does not change the answer of a decoder or of the encoder: more fuel (any answer
   but OutOfFuel), and for a raw item also more input behind it and a smaller nesting depth. *)
From FDO Require Import Cbor.Typed Cbor.DecFacts.
Local Open Scope nat_scope.

Lemma mapM_mono {A B} (f1 f2 : A -> outcome B) l :
  (forall x, le_out (f1 x) (f2 x)) -> le_out (mapM f1 l) (mapM f2 l).
Proof.
  intros Hf. induction l as [|x l IH]; cbn [mapM]; [apply le_out_refl|].
  apply le_out_bind; [apply Hf|]. intros y. apply le_out_bind; [apply IH|]. intros ys. apply le_out_refl.
Qed.

(* [le_out x y] for two terms of the same shape, one layer at a time; what is left at the leaves is an induction
   hypothesis or a lemma of the database mono (le_out_refl, le_out_oof, the sequence combinators below) *)
Create HintDb mono discriminated.
#[export] Hint Resolve le_out_refl le_out_oof : mono.
Ltac mstep :=
  match goal with
  | |- le_out (bind _ _) (bind _ _) => apply le_out_bind; [|intros ?]
  | |- le_out (if ?c then _ else _) (if ?c then _ else _) => apply le_out_if
  | |- le_out (match ?x with _ => _ end) (match ?x with _ => _ end) => destruct x
  | |- le_out (mapM _ _) (mapM _ _) => apply mapM_mono; intros ?
  | |- le_out _ _ => solve [auto with mono]
  end.

Lemma seq_n_mono {A} (d1 d2 : bytes -> outcome (A * bytes)) n :
  (forall b, le_out (d1 b) (d2 b)) -> forall b, le_out (seq_n d1 n b) (seq_n d2 n b).
Proof. intros Hd. induction n as [|n IH]; intros b; cbn [seq_n]; repeat mstep. Qed.

Lemma seq_fields_mono (d1 d2 : ty -> bytes -> outcome (val * bytes)) fs :
  (forall t b, le_out (d1 t b) (d2 t b)) -> forall b, le_out (seq_fields d1 fs b) (seq_fields d2 fs b).
Proof. intros Hd. induction fs as [|[p t] fs IH]; intros b; cbn [seq_fields]; repeat mstep. Qed.

Lemma seq_pairs_mono (dk1 dk2 dv1 dv2 : bytes -> outcome (val * bytes)) ok n :
  (forall b, le_out (dk1 b) (dk2 b)) -> (forall b, le_out (dv1 b) (dv2 b)) ->
  forall acc b, le_out (seq_pairs dk1 dv1 ok n acc b) (seq_pairs dk2 dv2 ok n acc b).
Proof. intros Hk Hv. induction n as [|n IH]; intros acc b; cbn [seq_pairs]; repeat mstep. Qed.

#[export] Hint Resolve seq_n_mono seq_fields_mono seq_pairs_mono : mono.

Lemma dec_raw_le f : forall f' d b, f <= f' -> le_out (dec_raw f d b) (dec_raw f' d b).
Proof.
  induction f as [|f IH]; intros f' d b Hf; [apply le_out_oof|].
  destruct f' as [|f']; [lia|]. cbn [dec_raw].
  assert (IH' : forall d b, le_out (dec_raw f d b) (dec_raw f' d b)) by (intros; apply IH; lia).
  repeat mstep.
Qed.

Theorem dec_raw_mono f f' d b o :
  dec_raw f d b = o -> o <> OutOfFuel -> f <= f' -> dec_raw f' d b = o.
Proof. intros E N Hf. eapply le_out_use; [apply dec_raw_le; exact Hf|exact E|exact N]. Qed.

Section DecMono.
  Variable O_der : bool -> bytes -> bool.
  Variable O_rfc : bytes -> option Z.
  Notation dec := (dec O_der O_rfc).

  Lemma dec_le f : forall f' d t b, f <= f' -> le_out (dec f d t b) (dec f' d t b).
  Proof.
    induction f as [|f IH]; intros f' d t b Hf; [apply le_out_oof|].
    destruct f' as [|f']; [lia|]. eapply le_out_eq; [apply dec_S..|].
    assert (IH' : forall d t b, le_out (dec f d t b) (dec f' d t b)) by (intros; apply IH; lia).
    assert (IHr : forall d b, le_out (dec_raw f d b) (dec_raw f' d b)) by (intros; apply dec_raw_le; lia).
     repeat mstep.
  Qed.

  Theorem dec_mono f f' d t b o :
    dec f d t b = o -> o <> OutOfFuel -> f <= f' -> dec f' d t b = o.
  Proof. intros E N Hf. eapply le_out_use; [apply dec_le; exact Hf|exact E|exact N]. Qed.
End DecMono.

Lemma enc_le f : forall f' t v, f <= f' -> le_out (enc f t v) (enc f' t v).
Proof.
  induction f as [|f IH]; intros f' t v Hf; [apply le_out_oof|].
  destruct f' as [|f']; [lia|]. cbn [enc].
  assert (IH' : forall t v, le_out (enc f t v) (enc f' t v)) by (intros; apply IH; lia).
  destruct t; repeat mstep.
Qed.

Theorem enc_mono f f' t v o : enc f t v = o -> o <> OutOfFuel -> f <= f' -> enc f' t v = o.
Proof. intros E N Hf. eapply le_out_use; [apply enc_le; exact Hf|exact E|exact N]. Qed.

Theorem enc_det f f' t v b b' : enc f t v = Ok b -> enc f' t v = Ok b' -> b = b'.
Proof.
  intros E E'.
  apply (enc_mono _ (Nat.max f f')) in E; [|discriminate|lia].
  apply (enc_mono _ (Nat.max f f')) in E'; [|discriminate|lia].
  congruence.
Qed.

Lemma take_app_more {A} k (b a r' r : list A) : take k b = Some (a, r') -> take k (b ++ r) = Some (a, r' ++ r).
Proof. intros [-> L]%take_spec. rewrite <- app_assoc. now apply take_app. Qed.

Lemma take_o_more {A} k (b a r' r : list A) : take_o k b = Ok (a, r') -> take_o k (b ++ r) = Ok (a, r' ++ r).
Proof.
  unfold take_o. destruct (take k b) as [[a0 r0]|] eqn:E; intros [= <- <-]. now rewrite (take_app_more _ _ _ _ r E).
Qed.

Lemma read_head_app b h r0 r : read_head b = Ok (h, r0) -> read_head (b ++ r) = Ok (h, r0 ++ r).
Proof.
  destruct b as [|x b]; cbn [read_head app]; [discriminate|].
  destruct (take _ b) as [[a r1]|] eqn:E; intros [= <- <-]. now rewrite (take_app_more _ _ _ _ r E).
Qed.

Lemma seq_n_stable {A} (d1 d2 : bytes -> outcome (A * bytes)) (g : bytes -> bytes) n b l r :
  (forall b x r, d1 b = Ok (x, r) -> d2 (g b) = Ok (x, g r)) ->
  seq_n d1 n b = Ok (l, r) -> seq_n d2 n (g b) = Ok (l, g r).
Proof.
  intros Hd. apply seq_n_Ok_ind with (P := fun n b l r => seq_n d2 n (g b) = Ok (l, g r)); [reflexivity|].
  intros ? ? ? ? ? ? E%Hd IH. cbn [seq_n]. rewrite E. cbn [bind]. now rewrite IH.
Qed.

(* a raw item is the same item with more input behind it, and at any smaller depth *)
Lemma dec_raw_stable f : forall d d' b s a r,
  d' <= d -> dec_raw f d b = Ok (a, r) -> dec_raw f d' (b ++ s) = Ok (a, r ++ s).
Proof.
  induction f as [|f IH]; intros d d' b s a r Hd; cbn [dec_raw]; [discriminate|].
  assert (TD : too_deep d = false -> too_deep d' = false) by (unfold too_deep; rewrite !Nat.leb_gt; lia).
  assert (IH' : forall b x r, dec_raw f (S d) b = Ok (x, r) -> dec_raw f (S d') (b ++ s) = Ok (x, r ++ s))
    by (intros; apply (IH (S d)); [lia|assumption]).
  destruct (read_head b) as [[h r0]| | |] eqn:EH; cbn [bind]; try discriminate.
  rewrite (read_head_app _ _ _ s EH). cbn [bind].
  destruct (too_deep d); [|rewrite (TD eq_refl)]; repeat dstep; intros [= <- <-];
    erewrite ?take_o_more, ?(seq_n_stable _ _ (fun b => b ++ s)), ?IH' by eauto; reflexivity.
Qed.

Lemma dec_raw_depth f d d' b x r : d' <= d -> dec_raw f d b = Ok (x, r) -> dec_raw f d' b = Ok (x, r).
Proof. intros Hd E. rewrite <- (app_nil_r b), <- (app_nil_r r). now apply (dec_raw_stable f d). Qed.
