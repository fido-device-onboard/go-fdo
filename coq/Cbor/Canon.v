(* Cbor/Canon.v — canonical form of what the encoder model emits: preferred (shortest) heads and map entries in
   bytewise order of their encoded keys. *)
From FDO Require Import Cbor.Typed.
From Coq Require Import Sorting.Sorted Sorting.Permutation.
Local Open Scope N_scope.

(* RFC 8949 preferred serialization: the head of argument n uses 0/1/2/4/8 additional bytes, the least possible *)
Definition preferred_extra (n : N) : nat :=
  if n <? 24 then 0%nat else if n <? 256 then 1%nat else if n <? 65536 then 2%nat
  else if n <? 4294967296 then 4%nat else 8%nat.

(* ... and this additional-information value in the first byte *)
Definition head_ai (n : N) : N :=
  if n <? 24 then n else if n <? 256 then 24 else if n <? 65536 then 25 else if n <? 4294967296 then 26 else 27.

Lemma head_eq mt n : head mt n = byte_of_N (mt * 32 + head_ai n) :: be (preferred_extra n) n.
Proof. unfold head, head_ai, preferred_extra. repeat destruct (_ <? _); reflexivity. Qed.

Lemma head_ai_lt n : head_ai n < 28.
Proof. unfold head_ai. repeat match goal with |- context [?a <? ?b] => destruct (N.ltb_spec a b) end; lia. Qed.

Lemma head_length_preferred mt n : length (head mt n) = S (preferred_extra n).
Proof. rewrite head_eq. cbn [length]. now rewrite be_length. Qed.

(* the first byte carries the major type and the matching additional-information value *)
Lemma head_first_byte mt n : mt < 8 -> n < 18446744073709551616 ->
  exists x tl, head mt n = x :: tl /\ Byte.to_N x / 32 = mt /\
    Byte.to_N x mod 32 = (if n <? 24 then n else if n <? 256 then 24 else if n <? 65536 then 25
                          else if n <? 4294967296 then 26 else 27).
Proof.
  intros Hmt _. fold (head_ai n). pose proof (head_ai_lt n). rewrite head_eq.
  eexists; eexists; (split; [reflexivity|]); rewrite to_of_N by lia; split; lia.
Qed.

(* bytewise order on encoded keys *)
Definition key_le (a b : bytes * bytes) : Prop := bytes_ltb (fst b) (fst a) = false.

Lemma bytes_ltb_asym a : forall b, bytes_ltb a b = true -> bytes_ltb b a = false.
Proof.
  induction a as [|x a IH]; intros [|y b]; cbn [bytes_ltb]; try discriminate; try reflexivity.
  destruct (N.ltb_spec (Byte.to_N x) (Byte.to_N y)); destruct (N.ltb_spec (Byte.to_N y) (Byte.to_N x)); try lia; auto.
Qed.

Lemma kv_insert_hd k v l x : HdRel key_le x l -> key_le x (k, v) -> HdRel key_le x (kv_insert k v l).
Proof.
  intros H Hk. destruct l as [|[k' v'] l]; cbn [kv_insert]; [constructor; exact Hk|].
  destruct (bytes_ltb k' k); constructor; [now inversion H|exact Hk].
Qed.

Lemma kv_insert_sorted k v l : Sorted key_le l -> Sorted key_le (kv_insert k v l).
Proof.
  induction l as [|[k' v'] l IH]; intros S; cbn [kv_insert]; [repeat constructor|].
  inversion S as [|? ? S' H'].
  destruct (bytes_ltb k' k) eqn:E.
  - constructor; [apply IH; exact S'|]. apply kv_insert_hd; [exact H'|].
    unfold key_le. cbn [fst]. now apply bytes_ltb_asym.
  - constructor; [exact S|]. constructor. unfold key_le. cbn [fst]. exact E.
Qed.

(* what encodeMap emits is ordered bytewise by encoded key, whatever order the map was presented in *)
Theorem kv_sort_sorted l : Sorted key_le (kv_sort l).
Proof.
  unfold kv_sort. induction l as [|[k v] l IH]; cbn [fold_right fst snd]; [constructor|].
  now apply kv_insert_sorted.
Qed.

Lemma kv_insert_perm k v l : Permutation ((k, v) :: l) (kv_insert k v l).
Proof.
  induction l as [|[k' v'] l IH]; cbn [kv_insert]; [apply Permutation_refl|].
  destruct (bytes_ltb k' k); [|apply Permutation_refl].
  eapply perm_trans; [apply perm_swap|]. now apply perm_skip.
Qed.

(* ... and nothing is lost or invented by the sort *)
Theorem kv_sort_perm l : Permutation l (kv_sort l).
Proof.
  unfold kv_sort. induction l as [|[k v] l IH]; cbn [fold_right fst snd]; [constructor|].
  eapply perm_trans; [apply perm_skip; exact IH|apply kv_insert_perm].
Qed.
