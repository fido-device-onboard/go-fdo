(* RoundTripCheck.v — an executable checker for wf and its soundness; the examples run it, and so does the harness
   (kind cbor.wfb of Run/Dispatch.v). *)
From FDO Require Import Cbor.Typed Cbor.DecFacts.
From FDO Require Import Cbor.RoundTripMono Cbor.RoundTripHead Cbor.RoundTripWf.
Local Open Scope nat_scope.

Fixpoint val_eqb_eq (a b : val) {struct a} : val_eqb a b = true <-> a = b.
Proof.
  destruct a, b; cbn [val_eqb]; try (split; discriminate).
  - rewrite Z.eqb_eq. split; congruence.
  - rewrite Bool.eqb_true_iff. split; congruence.
  - rewrite bytes_eqb_eq. split; congruence.
  - rewrite bytes_eqb_eq. split; congruence.
  - transitivity (l = l0); [|split; congruence]. revert l0.
    induction l as [|x l IHl]; intros [|y l0]; try (split; discriminate); [tauto|].
    rewrite andb_true_iff, val_eqb_eq, IHl. split; [intros [-> ->]|intros [= -> ->]]; auto.
  - transitivity (l = l0); [|split; congruence]. revert l0.
    induction l as [|[x1 x2] l IHl]; intros [|[y1 y2] l0]; try (split; discriminate); [tauto|].
    rewrite !andb_true_iff, !val_eqb_eq, IHl. split; [intros [[-> ->] ->]|intros [= -> -> ->]]; auto.
  - tauto.
  - rewrite andb_true_iff, N.eqb_eq, val_eqb_eq. split; [intros [-> ->]|intros [= -> ->]]; auto.
  - rewrite bytes_eqb_eq. split; congruence.
Qed.

Definition rawb (d : nat) (a : bytes) : bool :=
  match dec_raw (fuel_for a) d a with
  | Ok (x, []) => bytes_eqb x a
  | _ => false
  end.

Lemma rawb_sound d a : rawb d a = true -> raw_item d a.
Proof.
  unfold rawb. repeat dstep. intros ->%bytes_eqb_eq. eexists. eassumption.
Qed.

Definition enc_satb (n : nat) (t : ty) (v : val) (P : bytes -> bool) : bool :=
  match enc n t v with Ok a => P a | _ => false end.

Lemma enc_satb_sound n t v P (Q : bytes -> Prop) :
  (forall a, P a = true -> Q a) -> enc_satb n t v P = true -> enc_sat t v Q.
Proof.
  unfold enc_satb. intros HPQ. destruct (enc n t v) as [a| | |] eqn:E; try discriminate.
  intros HP fe a' E'. rewrite <- (enc_det _ _ _ _ _ _ E E'). now apply HPQ.
Qed.

Fixpoint kvs_eqb (x y : list (bytes * bytes)) : bool :=
  match x, y with
  | [], [] => true
  | (a1, a2) :: x', (b1, b2) :: y' => bytes_eqb a1 b1 && bytes_eqb a2 b2 && kvs_eqb x' y'
  | _, _ => false
  end.
Lemma kvs_eqb_eq x : forall y, kvs_eqb x y = true -> x = y.
Proof.
  induction x as [|[a1 a2] x IH]; intros [|[b1 b2] y]; cbn [kvs_eqb]; try discriminate; [reflexivity|].
  intros [[->%bytes_eqb_eq ->%bytes_eqb_eq]%andb_true_iff ->%IH]%andb_true_iff. reflexivity.
Qed.

Definition sortedb (n : nat) (tk tv : ty) (m : list (val * val)) : bool :=
  match mapM (enc_pair n tk tv) m with
  | Ok kvs => kvs_eqb (kv_sort kvs) kvs
  | _ => false
  end.

Lemma enc_pair_det n n' tk tv kv e e' : enc_pair n tk tv kv = Ok e -> enc_pair n' tk tv kv = Ok e' -> e = e'.
Proof.
  intros [E1 E2]%enc_pair_Ok [E1' E2']%enc_pair_Ok. destruct e, e'. cbn [fst snd] in *.
  f_equal; eapply enc_det; eassumption.
Qed.

Lemma mapM_det {A B} (g g' : A -> outcome B) :
  (forall x y y', g x = Ok y -> g' x = Ok y' -> y = y') ->
  forall l r r', mapM g l = Ok r -> mapM g' l = Ok r' -> r = r'.
Proof.
  intros Hg. induction l as [|x l IH]; intros r r'; cbn [mapM]; [now intros [= <-] [= <-]|].
  intros (y & E1 & (ys & E2 & [= <-])%bind_Ok_inv)%bind_Ok_inv (y' & E1' & (ys' & E2' & [= <-])%bind_Ok_inv)%bind_Ok_inv.
  now rewrite (Hg _ _ _ E1 E1'), (IH _ _ E2 E2').
Qed.

Lemma sortedb_sound n tk tv m : sortedb n tk tv m = true -> pairs_sorted tk tv m.
Proof.
  unfold sortedb. destruct (mapM (enc_pair n tk tv) m) as [kvs| | |] eqn:E; try discriminate.
  intros H fe kvs' E'. apply kvs_eqb_eq in H.
  assert (kvs = kvs') as <-; [|exact H].
  eapply mapM_det; [|exact E|exact E'].  apply enc_pair_det.
Qed.

Fixpoint omitted_zerob (l : list (bool * ty * val)) : bool :=
  match l with
  | [] => true
  | (om, t, v) :: r =>
    if om && is_empty_val v then
      val_eqb v (zero_val t) && match r with [] => true | _ :: r' => omitted_zerob r' end
    else omitted_zerob r
  end.

Lemma omitted_zerob_sound z : omitted_zerob z = true -> omitted_zero z.
Proof.
  induction z as [|[[om t] v] z IH1 IH2] using list_ind2; [easy|]. cbn [omitted_zerob omitted_zero].
  destruct (om && is_empty_val v); [|exact IH1].
  intros [->%val_eqb_eq H]%andb_true_iff. split; [reflexivity|]. destruct z; [exact I|exact (IH2 H)].
Qed.

(* struct field selection agrees with the encoder's mask: the types are the same on both sides (drop_one_snd,
   enc_mask_snd), so it is enough to compare which fields are present *)
Fixpoint bools_eqb (x y : list bool) : bool :=
  match x, y with
  | [], [] => true
  | a :: x', b :: y' => Bool.eqb a b && bools_eqb x' y'
  | _, _ => false
  end.
Lemma bools_eqb_eq x : forall y, bools_eqb x y = true -> x = y.
Proof.
  induction x as [|a x IH]; intros [|b y]; cbn [bools_eqb]; try discriminate; [reflexivity|].
  now intros [->%Bool.eqb_prop ->%IH]%andb_true_iff.
Qed.

Definition selb (fs : list (bool * ty)) (z : list (bool * ty * val)) : bool :=
  match select_fields fs (length (omit_pass z)) with
  | Ok sel => bools_eqb (map fst sel) (map fst (enc_mask z))
  | _ => false
  end.

Lemma drop_one_snd fs : forall seen x, drop_one seen fs = Ok x -> map snd x = map snd fs.
Proof.
  induction fs as [|[om t] fs IH1 IH2] using list_ind2; intros seen x; cbn [drop_one]; [now intros [= <-]|].
  destruct om.
  - destruct seen; [discriminate|]. destruct fs as [|[om' t'] fs]; [now intros [= <-]|].
    intros (y & E & [= <-])%bind_Ok_inv. cbn [map snd]. now rewrite (IH2 _ _ E).
  - intros (y & E & [= <-])%bind_Ok_inv. cbn [map snd]. now rewrite (IH1 _ _ E).
Qed.

Lemma select_fields_snd fs n sel : select_fields fs n = Ok sel -> map snd sel = map snd fs.
Proof.
  unfold select_fields. repeat dstep; intros [= <-]; [now rewrite map_map|eauto using drop_one_snd].
Qed.

Lemma enc_mask_snd z : map snd (enc_mask z) = map (fun x => snd (fst x)) z.
Proof.
  induction z as [|[[om t] v] z IH1 IH2] using list_ind2; [reflexivity|]. cbn [enc_mask].
  destruct (om && is_empty_val v); [|cbn [map snd fst]; now rewrite IH1].
  destruct z as [|[[om' t'] v'] z]; [reflexivity|]. cbn [map snd fst tl] in *. now rewrite IH2.
Qed.

Lemma fst_snd_eq {A B} (a : list (A * B)) : forall b, map fst a = map fst b -> map snd a = map snd b -> a = b.
Proof.
  induction a as [|[x y] a IH]; intros [|[x' y'] b] H1 H2; try discriminate; [reflexivity|].
  cbn [map fst snd] in *. injection H1 as -> H1. injection H2 as -> H2. f_equal. now apply IH.
Qed.

Lemma selb_sound fs l z :
  zip3 fs l = Some z -> selb fs z = true -> select_fields fs (length (omit_pass z)) = Ok (enc_mask z).
Proof.
  intros Hz. unfold selb. destruct (select_fields fs (length (omit_pass z))) as [sel| | |] eqn:E; try discriminate.
  intros H. apply bools_eqb_eq in H. f_equal. apply fst_snd_eq; [exact H|].
  rewrite (select_fields_snd _ _ _ E), enc_mask_snd.
  destruct (zip3_spec _ _ _ Hz) as [-> _]. rewrite map_map. reflexivity.
Qed.

Definition lenb (n : nat) (lim : N) : bool := (N.of_nat n <? lim)%N.
Definition int64b (z : Z) : bool := (kind_min KI64 <=? z)%Z && (z <=? kind_max KI64)%Z.
Definition depthb (d : nat) : bool := Nat.ltb d max_depth.

Section Checker.
  Variable O_der : bool -> bytes -> bool.

  Fixpoint wfb (n d : nat) (t : ty) (v : val) {struct n} : bool :=
    match n with
    | O => false
    | S n' =>
      let pairsb (tk tv : ty) (m : list (val * val)) :=
        depthb d && lenb (length m) 50000
        && forallb (fun kv => wfb n' (S d) tk (fst kv) && wfb n' (S d) tv (snd kv) && key_pred tk (fst kv)) m
        && distinct_from [] m && sortedb n' tk tv m in
      match t, v with
      | TInt k, VInt z => (kind_min k <=? z)%Z && (z <=? kind_max k)%Z
      | TBool, VBool _ => true
      | TBytes, VBytes a | TBWBytes, VBytes a => lenb (length a) 100000
      | TText, VText a => lenb (length a) 100000
      | TFixed k, VBytes a => Nat.eqb (length a) k && lenb k 100000
      | TSlice t', VList l => depthb d && lenb (length l) 100000 && forallb (wfb n' (S d) t') l
      | TPtr _, VNull => true
      | TPtr t', _ => ptr_okb t' v && wfb n' d t' v
      | TStruct fs, VList l =>
        match zip3 fs l with
        | None => false
        | Some z =>
          depthb d && lenb (length (omit_pass z)) 100000 && selb fs z && omitted_zerob z
          && forallb (fun tv => wfb n' (S d) (fst tv) (snd tv)) (omit_pass z)
        end
      | TMap tk tv, VMap m => pairsb tk tv m
      | TAny, VInt z => int64b z
      | TAny, VBool _ => true
      | TAny, VBytes a | TAny, VText a => lenb (length a) 100000
      | TAny, VNull => true
      | TAny, VList l => depthb d && lenb (length l) 100000 && forallb (wfb n' (S d) TAny) l
      | TAny, VMap m => pairsb TAny TAny m
      | TAny, VTag k (VRaw a) => (k <? two64)%N && rawb d a
      | TTag t', VTag k x => (k <? two64)%N && wfb n' 0 t' x
      | TTagged k t', _ => (k <? two64)%N && wfb n' 0 t' v && enc_satb n (TTagged k t') v (rawb d)
      | TBstr t', _ => wfb n' 0 t' v && enc_satb n' t' v (fun a => (N.of_nat (length a) <=? 9223372036854775807)%N)
      | TRaw, VRaw a => rawb d a
      | TDer _, VNull => true
      | TDer csr, VBytes a => lenb (length a) 100000 && O_der csr a
      | TLabel, VInt z => negb (z =? 0)%Z && int64b z
      | TLabel, VText a => lenb (length a) 100000
      | TProtHdr, VMap [] => true
      | TProtHdr, VMap m =>
        wfb n' 0 (TMap TLabel TAny) v
        && enc_satb n' (TMap TLabel TAny) v (fun a => lenb (length a) 100000)
      | TTimestamp, VNull => true
      | TTimestamp, VInt z => int64b z && negb (z =? zero_time_unix)%Z
      | _, _ => false
      end
    end.
End Checker.

Lemma forallb_Forall {A} (f : A -> bool) (P : A -> Prop) l :
  (forall x, f x = true -> P x) -> forallb f l = true -> Forall P l.
Proof.
  intros HP H. apply Forall_forall. intros x Hx.  eapply forallb_forall in H; eauto.
Qed.

(* a conjunction of tests that holds, as the hypotheses that each test holds (bsplit); the tests of the checker as the
   propositions they decide (bconv) *)
Ltac bsplit :=
  repeat match goal with
  | H : _ && _ = true |- _ => apply andb_true_iff in H as [? ?]
  end.
Ltac bconv :=
  repeat match goal with
  | H : lenb _ _ = true |- _ => unfold lenb in H; apply N.ltb_lt in H
  | H : depthb _ = true |- _ => unfold depthb in H; apply Nat.ltb_lt in H
  | H : int64b _ = true |- _ => unfold int64b in H; apply andb_true_iff in H as [? ?]
  | H : (_ <=? _)%Z = true |- _ => apply Z.leb_le in H
  | H : (_ <? _)%N = true |- _ => apply N.ltb_lt in H
  | H : negb _ = true |- _ => apply negb_true_iff in H
  | H : (_ =? _)%Z = false |- _ => apply Z.eqb_neq in H
  | H : Nat.eqb _ _ = true |- _ => apply Nat.eqb_eq in H
  | H : rawb _ _ = true |- _ => apply rawb_sound in H
  | H : sortedb _ _ _ _ = true |- _ => apply sortedb_sound in H
  | H : omitted_zerob _ = true |- _ => apply omitted_zerob_sound in H
  end.

Section CheckerSound.
  Variable O_der : bool -> bytes -> bool.

  (* every branch of the checker is the conjunction of the premises of one constructor of wf, in boolean form *)
  Lemma wfb_sound n : forall d t v, wfb O_der n d t v = true -> wf O_der d t v.
  Proof.
    induction n as [|n IH]; [discriminate|]. cbn [wfb].
    destruct t; destruct v; try discriminate; intros H;
      try match type of H with context [zip3 ?a ?b] => destruct (zip3 a b) eqn:Hz; [|discriminate] end;
      try match type of H with match ?x with _ => _ end = true => destruct x; try discriminate H end;
      bsplit; bconv.
    all: lazymatch goal with
         | |- wf _ _ (TTagged _ _) _ => apply wf_tagged; auto; eapply enc_satb_sound; [|eassumption]; apply rawb_sound
         | |- wf _ _ (TBstr _) _ => apply wf_bstr; auto; eapply enc_satb_sound; [|eassumption]; intros a; apply N.leb_le
         | |- wf _ _ TProtHdr (VMap (_ :: _)) =>
           apply wf_prot; auto; [discriminate|]; eapply enc_satb_sound; [|eassumption]; intros a; apply N.ltb_lt
         | |- wf _ _ TProtHdr _ => constructor
         | |- wf _ _ (TPtr _) _ => constructor; auto
         | |- wf _ _ (TStruct _) _ =>
           eapply wf_struct; eauto using selb_sound; eapply forallb_Forall; [|eassumption]; intros ?; apply IH
         | |- wf _ _ _ (VList _) => constructor; auto; eapply forallb_Forall; [|eassumption]; apply IH
         | |- wf _ _ _ (VMap _) =>
           constructor; auto; eapply forallb_Forall; [|eassumption]; cbn beta; intros; bsplit; auto
         | |- _ => constructor; unfold int64_ok; auto
         end.
  Qed.
End CheckerSound.
