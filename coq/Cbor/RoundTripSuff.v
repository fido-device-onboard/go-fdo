(* RoundTripSuff.v — simple sufficient conditions for the semantic side conditions of wf. *)
From FDO Require Import Cbor.Typed.
From FDO Require Import Cbor.RoundTripMono Cbor.RoundTripWf Cbor.RoundTripCheck.
Local Open Scope nat_scope.

(* structs with at most one omitempty field satisfy the field-selection clause of wf (one_om_select) *)
Definition count_om (fs : list (bool * ty)) : nat := length (filter fst fs).
Definition tys (z : list (bool * ty * val)) : list (bool * ty) := map fst z.

Lemma zip3_tys fs l z : zip3 fs l = Some z -> fs = tys z.
Proof.
  intros H. destruct (zip3_spec _ _ _ H) as [-> _]. unfold tys. apply map_ext. now intros [[om t] v].
Qed.

Definition all_present (z : list (bool * ty * val)) : list (bool * ty) := map (fun x => (true, snd (fst x))) z.

Lemma no_om_pass z :
  count_om (tys z) = 0 ->
  omit_pass z = map (fun x => (snd (fst x), snd x)) z /\ enc_mask z = all_present z
  /\ forall seen, drop_one seen (tys z) = Ok (all_present z).
Proof.
  induction z as [|[[om t] v] z IH]; [intros _; repeat split|].
  unfold count_om, tys. cbn [map fst filter omit_pass enc_mask all_present snd drop_one].
  destruct om; cbn [length andb]; [discriminate|]. intros H.
  destruct (IH H) as (E1 & E2 & E3). rewrite E1, E2. repeat split. intros seen.
  unfold tys in E3. rewrite E3. reflexivity.
Qed.

Lemma select_fields_cons t fs n :
  select_fields ((false, t) :: fs) (S n) = let* s := select_fields fs n in Ok ((true, t) :: s).
Proof.
  unfold select_fields. cbn [length Nat.eqb map snd drop_one].
  destruct (Nat.eqb (length fs) n); [reflexivity|].
  destruct (drop_one false fs) as [x| | |]; cbn [bind]; try reflexivity.
  unfold count_present. cbn [filter fst length Nat.eqb].
  destruct (Nat.eqb _ n); reflexivity.
Qed.

Lemma all_present_count z : count_present (all_present z) = length z.
Proof. unfold count_present, all_present. induction z; cbn [map filter fst length]; auto. Qed.

Lemma select_all z : select_fields (tys z) (length z) = Ok (all_present z).
Proof.
  unfold select_fields, tys. rewrite map_length, Nat.eqb_refl. f_equal. unfold all_present.
  rewrite map_map. apply map_ext. now intros [[om t] v].
Qed.

(* when no field of z is omittable, it makes no difference that the passes do not examine the element after an
   omitted one *)
Lemma no_om_skip z t :
  count_om (tys z) = 0 ->
  match z with [] => [] | (_, t', v') :: r' => (t', v') :: omit_pass r' end = omit_pass z /\
  match z with [] => [] | (_, t', _) :: r' => (true, t') :: enc_mask r' end = enc_mask z /\
  match tys z with
  | [] => Ok [(false, t)]
  | (_, t') :: r' => let* x := drop_one true r' in Ok ((false, t) :: (true, t') :: x)
  end = let* x := drop_one true (tys z) in Ok ((false, t) :: x).
Proof.
  destruct z as [|[[[] t'] v'] z]; [easy|discriminate|]. intros _. repeat split.
  cbn [tys map fst drop_one]. now destruct (drop_one true _).
Qed.

Theorem one_om_select fs l z :
  count_om fs <= 1 -> zip3 fs l = Some z ->
  select_fields fs (length (omit_pass z)) = Ok (enc_mask z).
Proof.
  intros Hc Hz. rewrite (zip3_tys _ _ _ Hz) in *. clear Hz fs l.
  induction z as [|[[om t] v] z IH]; [reflexivity|].
  unfold count_om, tys in Hc. cbn [map fst filter] in Hc.
  cbn [omit_pass enc_mask]. destruct om; cbn [andb].
  - (* the omittable field: nothing else is omittable *)
    cbn [length] in Hc. assert (H0 : count_om (tys z) = 0) by (unfold count_om, tys; lia).
    destruct (no_om_pass z H0) as (E1 & E2 & E3).
    destruct (is_empty_val v).
    + destruct (no_om_skip z t H0) as (-> & -> & S3). rewrite E1, E2, map_length.
      unfold select_fields. cbn [tys map fst length drop_one]. fold (tys z). rewrite S3, E3. cbn [bind].
      unfold tys, count_present. rewrite map_length. cbn [filter fst]. fold (count_present (all_present z)).
      rewrite all_present_count, Nat.eqb_refl. now destruct (Nat.eqb_spec (S (length z)) (length z)); [lia|].
    + rewrite E1, E2. cbn [length]. rewrite map_length. apply (select_all ((true, t, v) :: z)).
  - cbn [length]. change (tys ((false, t, v) :: z)) with ((false, t) :: tys z).
    rewrite select_fields_cons, IH; [reflexivity|]. exact Hc.
Qed.

(* val_eqb decides equality, so distinct_from means "pairwise different keys" *)
Lemma val_eqb_false a b : val_eqb a b = false <-> a <> b.
Proof. rewrite <- val_eqb_eq. symmetry. apply not_true_iff_false. Qed.

Lemma distinct_from_NoDup acc m :
  NoDup (map fst (acc ++ m)) -> distinct_from acc m = true.
Proof.
  revert acc. induction m as [|[k v] m IH]; intros acc H; [reflexivity|].
  cbn [distinct_from]. apply andb_true_iff. split.
  - apply forallb_forall. intros [k' v'] Hin. cbn [fst]. apply negb_true_iff, val_eqb_false.
    intros ->. rewrite map_app in H. cbn [map fst] in H. apply NoDup_remove_2 in H. apply H.
    apply in_or_app. left. apply in_map_iff. now exists (k', v').
  - apply IH. now rewrite <- app_assoc.
Qed.

Lemma raw_item_depth d d' a : d' <= d -> raw_item d a -> raw_item d' a.
Proof. intros Hd [f E]. exists f. eapply dec_raw_depth; eauto. Qed.
