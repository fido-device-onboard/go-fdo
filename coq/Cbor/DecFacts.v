(* Cbor/DecFacts.v — facts about the decoder model: a successful decode takes a non-empty prefix of its input
   and returns the rest; with the fuel the callers give it the decoder neither panics nor runs out of fuel;
   lengths and depths beyond the limits are refused on the head alone. *)
From FDO Require Export Base.ResultFacts.
From FDO Require Import Cbor.Typed.
Local Open Scope nat_scope.

Definition suffix_of (r b : bytes) : Prop := exists p, b = p ++ r.

Lemma suffix_refl b : suffix_of b b.
Proof. now exists []. Qed.
Lemma suffix_trans a b c : suffix_of a b -> suffix_of b c -> suffix_of a c.
Proof. intros [p ->] [q ->]. exists (q ++ p). now rewrite app_assoc. Qed.
Lemma suffix_app (p r b : bytes) : b = p ++ r -> suffix_of r b.
Proof. now exists p. Qed.
Lemma suffix_cons x r b : suffix_of r b -> suffix_of r (x :: b).
Proof. intros [p ->]. now exists (x :: p). Qed.
Lemma suffix_skipn n (b : bytes) : suffix_of (skipn n b) b.
Proof. exists (firstn n b). now rewrite firstn_skipn. Qed.

Lemma read_head_exact b h r : read_head b = Ok (h, r) -> b = head_bytes h ++ r.
Proof.
  destruct b as [|x b]; cbn [read_head]; [discriminate|].
  destruct (take _ b) as [[a r']|] eqn:E; [|discriminate].
  intros [= <- <-]. apply take_spec in E as [-> _]. unfold head_bytes. cbn [h_mt h_ai h_add app].
  f_equal. rewrite <- (byte_of_to_N x) at 1. f_equal. lia.
Qed.

(* what a successful decode does to its input b: it reads a head and leaves a suffix r of what follows the head *)
Definition consumes (b r : bytes) : Prop := exists h r0, read_head b = Ok (h, r0) /\ suffix_of r r0.

Lemma read_head_consumes b h r : read_head b = Ok (h, r) -> consumes b r.
Proof. intros E. exists h, r. split; [exact E|apply suffix_refl]. Qed.
Lemma consumes_suffix b m r : consumes b m -> suffix_of r m -> consumes b r.
Proof. intros (h & r0 & E & S) S'. exists h, r0. eauto using suffix_trans. Qed.
Lemma consumes_exact b r : consumes b r -> exists p, b = p ++ r /\ p <> [].
Proof.
  intros (h & r0 & ->%read_head_exact & [q ->]). exists (head_bytes h ++ q). now rewrite app_assoc.
Qed.
Lemma consumes_is_suffix b r : consumes b r -> suffix_of r b.
Proof. intros (p & -> & _)%consumes_exact. now exists p. Qed.
Lemma consumes_length b r : consumes b r -> length r < length b.
Proof. intros (p & -> & Hp)%consumes_exact. rewrite app_length. destruct p; [contradiction|cbn; lia]. Qed.

Lemma read_head_total b : total (read_head b).
Proof. destruct b as [|x b]; cbn [read_head]; [exact I|]. now destruct (take _ b) as [[? ?]|]. Qed.

Lemma take_o_exact {A} k (b a r : list A) : take_o k b = Ok (a, r) -> b = a ++ r.
Proof. unfold take_o. destruct (take k b) as [[a' r']|] eqn:E; intros [= <- <-]. now apply take_spec in E. Qed.

Lemma take_o_app {A} (a r : list A) : take_o (length a) (a ++ r) = Ok (a, r).
Proof. unfold take_o. now rewrite take_app. Qed.

Lemma take_o_total {A} k (b : list A) : total (take_o k b).
Proof. unfold take_o. now destruct (take k b). Qed.

Lemma split_limit_spec n b i r : split_limit n b = (i, r) -> b = i ++ r.
Proof.
  unfold split_limit. destruct (_ <=? _)%N; intros [= <- <-]; [now rewrite app_nil_r|now rewrite firstn_skipn].
Qed.

Lemma split_limit_app (a r : bytes) : split_limit (N.of_nat (length a)) (a ++ r) = (a, r).
Proof.
  unfold split_limit. rewrite app_length.
  destruct (N.leb_spec (N.of_nat (length a + length r)) (N.of_nat (length a))) as [H|H].
  - destruct r; [now rewrite app_nil_r|cbn [length] in H; lia].
  - rewrite Nat2N.id, firstn_app, firstn_all, skipn_app, skipn_all, Nat.sub_diag.
    cbn. now rewrite app_nil_r.
Qed.

Lemma not_deep d : d < max_depth -> too_deep d = false.
Proof. unfold too_deep. destruct (Nat.leb_spec max_depth d); [lia|reflexivity]. Qed.

Lemma decode_len_total h : total (decode_len h).
Proof. unfold decode_len. now destruct (_ <=? _)%N. Qed.

Lemma total_head {B} b (k : hd * bytes -> outcome B) :
  (forall h r, length r < length b -> total (k (h, r))) -> total (bind (read_head b) k).
Proof. intros H. apply bind_total; [apply read_head_total|]. intros [h r] E%read_head_consumes%consumes_length. auto. Qed.

(* One layer of control flow.  [dstep], above an equation [e = Ok _] that is the goal's premise: a bind that succeeded
   did so in its first half; a test or a match went one way.  [tstep], below [total]: the halves of a bind, the arms;
   what is left are the calls of other procedures, whose totality theorems are the hints of the database total. *)
Create HintDb total discriminated.
#[export] Hint Resolve take_o_total decode_len_total : total.

Ltac dstep :=
  match goal with
  | |- bind ?x _ = _ -> _ => destruct x eqn:?; cbn [bind]; try discriminate
  | |- (if ?c then _ else _) = _ -> _ => destruct c; try discriminate
  | |- match ?x with _ => _ end = _ -> _ => first [is_var x; destruct x | destruct x eqn:?]; try discriminate
  end.

Ltac tstep :=
  match goal with
  | |- total (bind (read_head _) _) => apply total_head; intros ? ? ?
  | |- total (bind _ _) => apply bind_total; [|intros ? ?]
  | |- total (if _ then _ else _) => apply if_total
  | |- total (match ?x with _ => _ end) => first [is_var x; destruct x | destruct x eqn:?]
  | |- total (Ok _) => exact I
  | |- total (Err _) => exact I
  end.

Section SeqN.
  Context {A : Type} (d : bytes -> outcome (A * bytes)).

  (* a successful seq_n is a chain of successful steps: every fact about one follows by this induction *)
  Lemma seq_n_Ok_ind (P : nat -> bytes -> list A -> bytes -> Prop) :
    (forall b, P 0 b [] b) ->
    (forall n b x r l r', d b = Ok (x, r) -> P n r l r' -> P (S n) b (x :: l) r') ->
    forall n b l r, seq_n d n b = Ok (l, r) -> P n b l r.
  Proof.
     induction n as [|n IH]; intros b l r; cbn [seq_n]; repeat dstep; intros [= <- <-]; eauto.
  Qed.

  Lemma seq_n_suffix n b l r :
    seq_n d n b = Ok (l, r) -> (forall b x r, d b = Ok (x, r) -> suffix_of r b) -> suffix_of r b.
  Proof.
    intros E Hd. revert E. apply seq_n_Ok_ind with (P := fun _ b _ r => suffix_of r b); eauto using suffix_refl, suffix_trans.
  Qed.

  Lemma seq_n_count n b l r :
    (forall b x r, d b = Ok (x, r) -> length r < length b) ->
    seq_n d n b = Ok (l, r) -> length l + length r <= length b.
  Proof.
    intros Hd. apply seq_n_Ok_ind with (P := fun _ b l r => length l + length r <= length b); cbn [length]; [lia|].
    intros ? ? ? ? ? ? E%Hd. lia.
  Qed.

  Lemma seq_n_total n : forall b,
    (forall b', length b' <= length b -> total (d b')) ->
    (forall b x r, d b = Ok (x, r) -> length r < length b) ->
    total (seq_n d n b).
  Proof.
    induction n as [|n IH]; intros b Ht Hd; cbn [seq_n]; [exact I|].
    apply bind_total; [auto|]. intros [x r1] E%Hd.
    apply bind_total; [|now intros []]. apply IH; [|exact Hd]. intros; apply Ht; lia.
  Qed.
End SeqN.

Lemma seq_n_concat (d : bytes -> outcome (bytes * bytes)) n b l r :
  (forall b a r, d b = Ok (a, r) -> b = a ++ r) -> seq_n d n b = Ok (l, r) -> b = concat l ++ r.
Proof.
  intros Hd. apply seq_n_Ok_ind with (P := fun _ b l r => b = concat l ++ r); [reflexivity|].
  intros ? ? ? ? ? ? ->%Hd ->. cbn [concat]. now rewrite app_assoc.
Qed.

Lemma seq_fields_suffix (d : ty -> bytes -> outcome (val * bytes)) fs b l r :
  seq_fields d fs b = Ok (l, r) -> (forall t b x r, d t b = Ok (x, r) -> suffix_of r b) -> suffix_of r b.
Proof.
  intros E Hd. revert b l r E.
  induction fs as [|[[] t] fs IH]; intros b l r; cbn [seq_fields]; repeat dstep; intros [= <- <-];
    eauto using suffix_refl, suffix_trans.
Qed.

Lemma seq_fields_total (d : ty -> bytes -> outcome (val * bytes)) fs : forall b,
  (forall t b', length b' <= length b -> total (d t b')) ->
  (forall t b x r, d t b = Ok (x, r) -> length r < length b) ->
  total (seq_fields d fs b).
Proof.
  induction fs as [|[[] t] fs IH]; intros b Ht Hd; cbn [seq_fields]; [exact I| |].
  - apply bind_total; [auto|]. intros [x r1] E%Hd.
    apply bind_total; [|now intros []]. apply IH; [|exact Hd]. intros; apply Ht; lia.
  - apply bind_total; [|now intros []]. auto.
Qed.

Lemma seq_pairs_suffix dk dv ok n acc b m r :
  seq_pairs dk dv ok n acc b = Ok (m, r) ->
  (forall b x r, dk b = Ok (x, r) -> suffix_of r b) -> (forall b x r, dv b = Ok (x, r) -> suffix_of r b) ->
  suffix_of r b.
Proof.
  intros E Hk Hv. revert acc b E.
  induction n as [|n IH]; intros acc b; cbn [seq_pairs]; repeat dstep;
    [intros [= <- <-]|intros E%IH]; eauto using suffix_refl, suffix_trans.
Qed.

Lemma seq_pairs_total dk dv ok n : forall acc b,
  (forall b', length b' <= length b -> total (dk b')) -> (forall b', length b' <= length b -> total (dv b')) ->
  (forall b x r, dk b = Ok (x, r) -> length r < length b) -> (forall b x r, dv b = Ok (x, r) -> length r < length b) ->
  total (seq_pairs dk dv ok n acc b).
Proof.
  induction n as [|n IH]; intros acc b Tk Tv Hk Hv; cbn [seq_pairs]; [exact I|].
  apply bind_total; [auto|]. intros [k r1] E1%Hk.
  apply bind_total; [apply Tv; lia|]. intros [v r2] E2%Hv.
  destruct (ok k); [|exact I]. apply IH; auto; intros; [apply Tk|apply Tv]; lia.
Qed.

Lemma dec_string_suffix t h r v r' : dec_string t h r = Ok (v, r') -> suffix_of r' r.
Proof. unfold dec_string. repeat dstep; intros [= <- <-]; eauto using suffix_app, take_o_exact. Qed.

(* [consumes b r] along one path through a decoder.  Each equation of the path names what it read from and what it
   left: the first gives [consumes b m], the others that r is a suffix of m, by the lemmas of the database or by the
   induction hypothesis in the context.  (The sequence lemmas have their equation first because eauto meets premises
   in that order.) *)
Create HintDb consumes discriminated.
#[local] Hint Resolve read_head_consumes consumes_is_suffix suffix_app take_o_exact split_limit_spec
  dec_string_suffix seq_n_suffix seq_fields_suffix seq_pairs_suffix : consumes.
Ltac walk := first [solve [eauto with consumes] | eapply consumes_suffix; solve [eauto 9 with consumes]].

Lemma dec_raw_exact f : forall d b a r, dec_raw f d b = Ok (a, r) -> b = a ++ r.
Proof.
  induction f as [|f IH]; intros d b a r; cbn [dec_raw]; [discriminate|].
  repeat dstep; intros [= <- <-];
    match goal with E : read_head _ = _ |- _ => apply read_head_exact in E as -> end;
    unfold head_bytes; cbn [app]; rewrite <- ?app_assoc; do 2 f_equal; eauto using take_o_exact, seq_n_concat.
Qed.

Lemma dec_raw_consumes f : forall d b a r, dec_raw f d b = Ok (a, r) -> consumes b r.
Proof.
  induction f as [|f IH]; intros d b a r; cbn [dec_raw]; [discriminate|]. repeat dstep; intros [= <- <-]; walk.
Qed.
#[local] Hint Resolve dec_raw_consumes : consumes.

Lemma dec_raw_total f : forall d b, length b < f -> total (dec_raw f d b).
Proof.
  induction f as [|f IH]; intros d b Hf; [lia|]. cbn [dec_raw].
  repeat tstep; auto with total; try (apply IH; lia).
  apply seq_n_total; intros; [apply IH; lia|eapply consumes_length, dec_raw_consumes; eassumption].
Qed.

Lemma total_raw {B} f d b (k : bytes * bytes -> outcome B) :
  length b < f -> (forall a r, length a <= length b -> total (k (a, r))) -> total (bind (dec_raw f d b) k).
Proof.
  intros Hf H. apply bind_total; [now apply dec_raw_total|]. intros [a r] ->%dec_raw_exact.
  apply H. rewrite app_length. lia.
Qed.

Fixpoint drop_one_total fs seen {struct fs} : total (drop_one seen fs).
Proof.
  destruct fs as [|[[] t] fs]; cbn [drop_one]; [exact I| |].
  - destruct seen; [exact I|]. destruct fs as [|[? t'] fs]; [exact I|].
    apply bind_total; [apply drop_one_total|now intros].
  - apply bind_total; [apply drop_one_total|now intros].
Qed.

Lemma select_fields_total fs n : total (select_fields fs n).
Proof.
  unfold select_fields. destruct (Nat.eqb _ _); [exact I|].
  apply bind_total; [apply drop_one_total|]. intros sel _. now destruct (Nat.eqb _ _).
Qed.

Lemma dec_positive_total t n : total (dec_positive t n).
Proof. unfold dec_positive. destruct t; try exact I; now destruct (_ <? _)%Z. Qed.
Lemma dec_negative_total t n : total (dec_negative t n).
Proof. unfold dec_negative. destruct t; try exact I; [destruct (kind_signed k); [|exact I]|]; now destruct (_ <? _)%Z. Qed.
Lemma dec_string_total t h r : total (dec_string t h r).
Proof. unfold dec_string. repeat tstep; auto with total. Qed.
#[export] Hint Resolve dec_positive_total dec_negative_total dec_string_total select_fields_total : total.

Definition generic_ty (t : ty) : bool :=
  match t with
  | TInt _ | TBool | TBytes | TText | TFixed _ | TSlice _ | TStruct _ | TMap _ _ | TAny => true
  | _ => false
  end.

(* TPtr, TProtHdr and TLabel hand the input they were given to another decoder unread; this bounds how often
   that can happen in a row, which is why three units of fuel per byte are enough *)
Definition handoffs (t : ty) : nat := match t with TPtr _ => 2 | TProtHdr | TLabel => 1 | _ => 0 end.
Lemma handoffs_le t : handoffs t <= 2.
Proof. destruct t; cbn; lia. Qed.

Section Dec.
  Variable O_der : bool -> bytes -> bool.
  Variable O_rfc : bytes -> option Z.
  Notation dec := (dec O_der O_rfc).

  (* One unfolding step.  [cbn [dec]] on an arbitrary type, under the induction, makes Qed compare the whole fixpoint at
     each of its recursive calls once more; here that is paid once.  (On a concrete type cbn is harmless.) *)
  Lemma dec_S f d t b :
    dec (S f) d t b = ltac:(let e := eval cbn [Typed.dec] in (dec (S f) d t b) in exact e).
  Proof. destruct t; reflexivity. Qed.

  Lemma dec_consumes f : forall d t b v r, dec f d t b = Ok (v, r) -> consumes b r.
  Proof.
    induction f as [|f IH]; intros d t b v r; [discriminate|]. rewrite dec_S.
    destruct t; repeat dstep; intros E; try injection E as <- <-; walk.
  Qed.

  Corollary dec_exact f d t b v r : dec f d t b = Ok (v, r) -> exists p, b = p ++ r /\ p <> [].
  Proof. intros E. eapply consumes_exact, dec_consumes, E. Qed.
  Corollary dec_strict f d t b v r : dec f d t b = Ok (v, r) -> length r < length b.
  Proof. intros E. eapply consumes_length, dec_consumes, E. Qed.

  Lemma dec_bytes_len f d b c r : dec f d TBytes b = Ok (VBytes c, r) -> length c <= length b.
  Proof.
    destruct f; [discriminate|]. rewrite dec_S. unfold dec_string, dec_positive, dec_negative.
    repeat dstep; intros [= <- <-]; cbn [length]; try lia;
      match goal with E : read_head _ = _ |- _ => apply read_head_consumes, consumes_length in E end.
    - match goal with E : take_o _ _ = _ |- _ => apply take_o_exact in E as -> end. rewrite app_length in *. lia.
    - match goal with E : seq_n _ _ _ = _ |- _ => apply seq_n_count in E; [|apply dec_strict] end.
      rewrite map_length. lia.
  Qed.

  (* tstep, and what calls the decoder again: a raw item is cut first (what it is handed on to gets no more input
     than there was); a sequence of items (each leaves less than it was given); the decoder itself, by the induction
     hypothesis *)
  Ltac tstep_dec IH :=
    lazymatch goal with
    | |- total (bind (dec_raw _ _ _) _) => apply total_raw; [lia|intros ? ? ?]
    | |- total (seq_n _ _ _) => apply seq_n_total; intros
    | |- total (seq_fields _ _ _) => apply seq_fields_total; intros
    | |- total (seq_pairs _ _ _ _ _ _) => apply seq_pairs_total; intros
    | |- length _ < length _ => eapply dec_strict; eassumption
    | |- total (Typed.dec _ _ _ _ ?t _) => apply IH; cbn [handoffs]; pose proof (handoffs_le t); lia
    | |- _ => tstep
    end.

  Lemma dec_total f : forall d t b, 3 * length b + handoffs t + 1 < f -> total (dec f d t b).
  Proof.
    induction f as [|f IH]; intros d t b Hf; [lia|]. rewrite dec_S.
    destruct t; cbn [handoffs] in Hf; repeat tstep_dec IH; auto with total.
    (* left: the item inside a TBstr, the map inside a TProtHdr *)
    - match goal with E : split_limit _ _ = _ |- _ => apply split_limit_spec in E as -> end.
      rewrite app_length in *. tstep_dec IH.
    - match goal with E : Typed.dec _ _ _ _ TBytes _ = _ |- _ => apply dec_bytes_len in E end. tstep_dec IH.
  Qed.

  Lemma dec_fuel_for_total t b : total (dec (fuel_for b) 0 t b).
  Proof. apply dec_total. unfold fuel_for. pose proof (handoffs_le t). lia. Qed.

  Lemma unmarshal_total t b : total (unmarshal O_der O_rfc t b).
  Proof. apply bind_total; [apply dec_fuel_for_total|]. now intros [v []]. Qed.

  Lemma unmarshal_whole t b v : unmarshal O_der O_rfc t b = Ok v -> dec (fuel_for b) 0 t b = Ok (v, []).
  Proof. unfold unmarshal. repeat dstep. now intros [= <-]. Qed.

  (* what is refused on the head alone, before anything more is read or allocated *)
  Lemma dec_refuses f d t b h r :
    generic_ty t = true -> read_head b = Ok (h, r) ->
    ((h_mt h = 2 \/ h_mt h = 3 \/ h_mt h = 4) /\ max_len <= arg_val h \/ h_mt h = 5 /\ 50000 <= arg_val h
     \/ (h_mt h = 4 \/ h_mt h = 5) /\ too_deep d = true)%N ->
    dec (S f) d t b = Err ETooLong.
  Proof.
    intros G EH HL. rewrite dec_S.
    (* the nine plain shapes share the decoder's default branch, which refuses before it looks at t *)
    match goal with |- match t with TBool => ?X | _ => _ end = _ => assert (P : X = Err ETooLong) end.
    { rewrite EH; cbn [bind]; unfold dec_string;
        destruct HL as [[[-> | [-> | ->]] HL%N.leb_le] | [[-> HL%N.leb_le] | [[-> | ->] HL]]];
        cbn [N.eqb Pos.eqb orb]; rewrite HL; now destruct (too_deep d). }
    destruct t; try discriminate G; exact P.
  Qed.

  Lemma dec_refuses_wrapped f d t b h r :
    (t = TBWBytes \/ exists c, t = TDer c) -> read_head b = Ok (h, r) ->
    (h_mt h = 2 \/ h_mt h = 3)%N -> is_null_hd h = false -> (max_len <= arg_unwrap h)%N ->
    dec (S f) d t b = Err ETooLong.
  Proof.
    intros Ht EH Hm Hn HL%N.leb_le.
    destruct Ht as [-> | [c ->]]; cbn [Typed.dec]; rewrite EH; cbn [bind]; rewrite Hn, HL; now destruct Hm as [-> | ->].
  Qed.
End Dec.

(* the codec never panics: the encoder has no such outcome, the decoder is total *)
Lemma mapM_no_panic {A B} (f : A -> outcome B) l p :
  (forall x, f x <> Panic p) -> mapM f l <> Panic p.
Proof. induction l; cbn [mapM]; no_panic. Qed.
#[export] Hint Resolve mapM_no_panic : no_panic.

Lemma enc_no_panic f : forall t v p, enc f t v <> Panic p.
Proof.
  induction f as [|f IH]; intros t v p; cbn [enc]; [discriminate|].
   no_panic.
  all: apply mapM_no_panic; no_panic.
Qed.

Lemma unmarshal_no_panic O_der O_rfc t b p : unmarshal O_der O_rfc t b <> Panic p.
Proof. apply total_no_panic, unmarshal_total. Qed.
Lemma dec_no_panic O_der O_rfc t b p : dec O_der O_rfc (fuel_for b) 0 t b <> Panic p.
Proof. apply total_no_panic, dec_fuel_for_total. Qed.
#[export] Hint Resolve enc_no_panic unmarshal_no_panic dec_no_panic : no_panic.
