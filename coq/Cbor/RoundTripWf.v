(* RoundTripWf.v — the well-formedness predicate for values that the model round-trips; after it, what its checker
   (RoundTripCheck.v) and the round trip proof (RoundTrip.v) share. *)
From FDO Require Import Cbor.Typed Cbor.DecFacts Cbor.RoundTripHead.
Local Open Scope nat_scope.

Definition int64_ok (z : Z) : Prop := (kind_min KI64 <= z <= kind_max KI64)%Z.

(* a property of "the" encoding of v at type t (enc is deterministic across fuels: enc_det) *)
Definition enc_sat (t : ty) (v : val) (P : bytes -> Prop) : Prop :=
  forall fe a, enc fe t v = Ok a -> P a.

(* a is exactly one well-formed CBOR item when scanned at nesting depth d *)
Definition raw_item (d : nat) (a : bytes) : Prop := exists f, dec_raw f d a = Ok (a, []).

(* presence mask produced by the encoder's omitempty pass (mirrors omit_pass) *)
Fixpoint enc_mask (l : list (bool * ty * val)) : list (bool * ty) :=
  match l with
  | [] => []
  | (om, t, v) :: r =>
    if om && is_empty_val v then
      (false, t) :: match r with
                    | [] => []
                    | (_, t', _) :: r' => (true, t') :: enc_mask r'
                    end
    else (true, t) :: enc_mask r
  end.

(* every field the encoder omits holds the zero value of its type *)
Fixpoint omitted_zero (l : list (bool * ty * val)) : Prop :=
  match l with
  | [] => True
  | (om, t, v) :: r =>
    if om && is_empty_val v then
      v = zero_val t /\ match r with [] => True | _ :: r' => omitted_zero r' end
    else omitted_zero r
  end.

Definition key_pred (tk : ty) : val -> bool :=
  match tk with TAny => any_key_ok | _ => fun _ => true end.

(* each key differs (val_eqb) from all keys before it; acc = pairs already seen *)
Fixpoint distinct_from (acc m : list (val * val)) : bool :=
  match m with
  | [] => true
  | (k, v) :: m' =>
    forallb (fun kv => negb (val_eqb k (fst kv))) acc && distinct_from (acc ++ [(k, v)]) m'
  end.

Definition enc_pair (fe : nat) (tk tv : ty) (kv : val * val) : outcome (bytes * bytes) :=
  let* k := enc fe tk (fst kv) in let* x := enc fe tv (snd kv) in Ok (k, x).

(* the association list is already in the order in which the encoder emits it *)
Definition pairs_sorted (tk tv : ty) (m : list (val * val)) : Prop :=
  forall fe kvs, mapM (enc_pair fe tk tv) m = Ok kvs -> kv_sort kvs = kvs.

Definition ptr_okb (t : ty) (v : val) : bool :=
  match t, v with
  | TPtr _, _ => false
  | _, VNull => false
  | TRaw, VRaw (x :: _) => negb (null_byte x)
  | TRaw, _ => false
  | _, _ => true
  end.

Section Wf.
  Variable O_der : bool -> bytes -> bool.

  Inductive wf : nat -> ty -> val -> Prop :=
  | wf_int d k z : (kind_min k <= z <= kind_max k)%Z -> wf d (TInt k) (VInt z)
  | wf_bool d b : wf d TBool (VBool b)
  | wf_bytes d a : (N.of_nat (length a) < 100000)%N -> wf d TBytes (VBytes a)
  | wf_text d a : (N.of_nat (length a) < 100000)%N -> wf d TText (VText a)
  | wf_fixed d n a : length a = n -> (N.of_nat n < 100000)%N -> wf d (TFixed n) (VBytes a)
  | wf_slice d t l :
      d < max_depth -> (N.of_nat (length l) < 100000)%N -> Forall (wf (S d) t) l -> wf d (TSlice t) (VList l)
  | wf_ptr_nil d t : wf d (TPtr t) VNull
  | wf_ptr d t v : ptr_okb t v = true -> wf d t v -> wf d (TPtr t) v
  | wf_struct d fs l z :
      d < max_depth -> zip3 fs l = Some z -> (N.of_nat (length (omit_pass z)) < 100000)%N ->
      select_fields fs (length (omit_pass z)) = Ok (enc_mask z) ->
      omitted_zero z ->
      Forall (fun tv => wf (S d) (fst tv) (snd tv)) (omit_pass z) ->
      wf d (TStruct fs) (VList l)
  | wf_map d tk tv m :
      d < max_depth -> (N.of_nat (length m) < 50000)%N ->
      Forall (fun kv => wf (S d) tk (fst kv) /\ wf (S d) tv (snd kv) /\ key_pred tk (fst kv) = true) m ->
      distinct_from [] m = true -> pairs_sorted tk tv m ->
      wf d (TMap tk tv) (VMap m)
  | wf_any_int d z : int64_ok z -> wf d TAny (VInt z)
  | wf_any_bool d b : wf d TAny (VBool b)
  | wf_any_bytes d a : (N.of_nat (length a) < 100000)%N -> wf d TAny (VBytes a)
  | wf_any_text d a : (N.of_nat (length a) < 100000)%N -> wf d TAny (VText a)
  | wf_any_null d : wf d TAny VNull
  | wf_any_list d l :
      d < max_depth -> (N.of_nat (length l) < 100000)%N -> Forall (wf (S d) TAny) l -> wf d TAny (VList l)
  | wf_any_map d m :
      d < max_depth -> (N.of_nat (length m) < 50000)%N ->
      Forall (fun kv => wf (S d) TAny (fst kv) /\ wf (S d) TAny (snd kv) /\ any_key_ok (fst kv) = true) m ->
      distinct_from [] m = true -> pairs_sorted TAny TAny m ->
      wf d TAny (VMap m)
  | wf_any_tag d n a : (n < two64)%N -> raw_item d a -> wf d TAny (VTag n (VRaw a))
  | wf_tag d t n v : (n < two64)%N -> wf 0 t v -> wf d (TTag t) (VTag n v)
  | wf_tagged d n t v :
      (n < two64)%N -> wf 0 t v -> enc_sat (TTagged n t) v (raw_item d) -> wf d (TTagged n t) v
  | wf_bstr d t v :
      wf 0 t v -> enc_sat t v (fun a => (N.of_nat (length a) <= 9223372036854775807)%N) ->
      wf d (TBstr t) v
  | wf_bwbytes d a : (N.of_nat (length a) < 100000)%N -> wf d TBWBytes (VBytes a)
  | wf_raw d a : raw_item d a -> wf d TRaw (VRaw a)
  | wf_der_nil d csr : wf d (TDer csr) VNull
  | wf_der d csr a : (N.of_nat (length a) < 100000)%N -> O_der csr a = true -> wf d (TDer csr) (VBytes a)
  | wf_label_int d z : z <> 0%Z -> int64_ok z -> wf d TLabel (VInt z)
  | wf_label_text d a : (N.of_nat (length a) < 100000)%N -> wf d TLabel (VText a)
  | wf_prot_empty d : wf d TProtHdr (VMap [])
  | wf_prot d m :
      m <> [] -> wf 0 (TMap TLabel TAny) (VMap m) ->
      enc_sat (TMap TLabel TAny) (VMap m) (fun a => (N.of_nat (length a) < 100000)%N) ->
      wf d TProtHdr (VMap m)
  | wf_ts_nil d : wf d TTimestamp VNull
  | wf_ts d z : int64_ok z -> z <> zero_time_unix -> wf d TTimestamp (VInt z).
End Wf.

(* one step of the encoder on the wrapper types (for a pointer it depends on the value, so cbn does not give it) *)
Lemma enc_ptr f t v : v <> VNull -> enc (S f) (TPtr t) v = enc f t v.
Proof. destruct v; try reflexivity. congruence. Qed.
Lemma enc_tagged f n t v : enc (S f) (TTagged n t) v = let* a := enc f t v in Ok (head 6 n ++ a).
Proof. reflexivity. Qed.
Lemma enc_bstr f t v : enc (S f) (TBstr t) v = let* a := enc f t v in Ok (head 2 (N.of_nat (length a)) ++ a).
Proof. reflexivity. Qed.

Lemma enc_struct f fs l z :
  zip3 fs l = Some z ->
  enc (S f) (TStruct fs) (VList l) =
  let* bs := mapM (fun tv => enc f (fst tv) (snd tv)) (omit_pass z) in Ok (head 4 (N.of_nat (length (omit_pass z))) ++ concat bs).
Proof. cbn [enc]. now intros ->. Qed.

Lemma ptr_okb_spec t v : ptr_okb t v = true -> v <> VNull /\ forall t', t <> TPtr t'.
Proof. destruct t, v; try discriminate; split; discriminate. Qed.

Lemma enc_pair_Ok fe tk tv kv e :
  enc_pair fe tk tv kv = Ok e -> enc fe tk (fst kv) = Ok (fst e) /\ enc fe tv (snd kv) = Ok (snd e).
Proof. now intros (k & Ek & (x & Ex & [= <-])%bind_Ok_inv)%bind_Ok_inv. Qed.

Lemma mapM_Forall2 {A B} (g : A -> outcome B) (P : A -> Prop) (Q : A -> B -> Prop) :
  (forall x y, P x -> g x = Ok y -> Q x y) ->
  forall l l', Forall P l -> mapM g l = Ok l' -> Forall2 Q l l'.
Proof.
   induction l as [|x l IH]; intros l' HP; cbn [mapM].
  - intros [= <-]. constructor.
  - intros (y & Ey & (ys & Eys & [= <-])%bind_Ok_inv)%bind_Ok_inv. inversion HP.  auto.
Qed.

Lemma Forall2_length {A B} (R : A -> B -> Prop) l l' : Forall2 R l l' -> length l = length l'.
Proof. induction 1; cbn; congruence. Qed.

(* induction for functions on lists that step over one element or two *)
Lemma list_ind2 {A} (P : list A -> Prop) :
  P [] -> (forall x l, P l -> P (tl l) -> P (x :: l)) -> forall l, P l.
Proof. intros H0 HS l. enough (P l /\ P (tl l)) by tauto. induction l as [|x l [IH1 IH2]]; cbn [tl]; auto. Qed.

Lemma zip3_spec fs : forall l z, zip3 fs l = Some z -> fs = map (fun x => (fst (fst x), snd (fst x))) z /\ l = map snd z.
Proof.
  induction fs as [|[om t] fs IH]; intros [|v l] z; cbn [zip3]; try discriminate.
  - intros H; injection H as <-. now split.
  - destruct (zip3 fs l) as [z'|] eqn:E; [|discriminate].
    intros H; injection H as <-. destruct (IH _ _ E) as [-> ->]. now split.
Qed.
