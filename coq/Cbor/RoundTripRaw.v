(* RoundTripRaw.v — the encoder's output is one well-formed raw item (dec_raw accepts exactly it).
   Gives a structural sufficient condition for the side condition of wf_tagged
   (enc_sat (TTagged n t) v (raw_item d)): see wf_tagged_rw at the end. *)
From FDO Require Import Cbor.Typed Cbor.DecFacts.
From FDO Require Import Cbor.Canon Cbor.RoundTripHead Cbor.RoundTripWf Cbor.RoundTripCheck Cbor.RoundTrip.
From Coq Require Import Sorting.Permutation.
Local Open Scope nat_scope.

(* rw d t v : the encoding of v at type t is a raw item when scanned from depth d *)
Inductive rw : nat -> ty -> val -> Prop :=
| rw_int d t z : (match t with TInt _ | TAny | TLabel => True | _ => False end) -> intraw z -> rw d t (VInt z)
| rw_bool d t b : (match t with TBool | TAny => True | _ => False end) -> rw d t (VBool b)
| rw_null d t : (match t with TPtr _ | TAny | TDer _ | TTimestamp => True | _ => False end) -> rw d t VNull
| rw_bytes d t a :
    (match t with TBytes | TFixed _ | TBWBytes | TDer _ | TAny => True | _ => False end) -> short a -> rw d t (VBytes a)
| rw_text d t a : (match t with TText | TLabel | TAny => True | _ => False end) -> short a -> rw d t (VText a)
| rw_list d t l :
    (t = TAny \/ exists t', t = TSlice t') ->
    d < max_depth -> (N.of_nat (length l) < 100000)%N ->
    Forall (rw (S d) (match t with TSlice t' => t' | _ => TAny end)) l -> rw d t (VList l)
| rw_struct d fs l z :
    d < max_depth -> zip3 fs l = Some z -> (N.of_nat (length (omit_pass z)) < 100000)%N ->
    Forall (fun tv => rw (S d) (fst tv) (snd tv)) (omit_pass z) -> rw d (TStruct fs) (VList l)
| rw_map d t tk tv m :
    (t = TAny /\ tk = TAny /\ tv = TAny \/ t = TMap tk tv) ->
    d < max_depth -> (N.of_nat (length m) < 50000)%N ->
    Forall (fun kv => rw (S d) tk (fst kv) /\ rw (S d) tv (snd kv)) m -> rw d t (VMap m)
| rw_any_tag d n a : (n < two64)%N -> d < max_depth -> raw_item (S d) a -> rw d TAny (VTag n (VRaw a))
| rw_tag d t n v : (n < two64)%N -> d < max_depth -> rw (S d) t v -> rw d (TTag t) (VTag n v)
| rw_tagged d n t v : (n < two64)%N -> d < max_depth -> rw (S d) t v -> rw d (TTagged n t) v
| rw_bstr d t v : enc_sat t v short -> rw d (TBstr t) v
| rw_raw d a : raw_item d a -> rw d TRaw (VRaw a)
| rw_ptr d t v : v <> VNull -> rw d t v -> rw d (TPtr t) v
| rw_prot d m : enc_sat (TMap TLabel TAny) (VMap m) short -> rw d TProtHdr (VMap m)
| rw_ts d z : d < max_depth -> intraw z -> rw d TTimestamp (VInt z).

Lemma Forall2_right {A B} (Q : B -> Prop) (l : list A) l' : Forall2 (fun _ y => Q y) l l' -> Forall Q l'.
Proof. induction 1; auto. Qed.

(* what the raw scanner makes of arrays, maps and tags (leaves: RoundTrip.raw_ev_int, raw_ev_simple, raw_ev_str) *)
Lemma raw_ev_seq d (bs : list bytes) :
  Forall (raw_ev d) bs -> reads_as (fun f => seq_n (dec_raw f d) (length bs)) (concat bs) bs.
Proof. intros H. apply reads_seq_n. induction H; auto. Qed.

(* l stands for what the items bs encode: the encoder writes its length *)
Lemma raw_ev_array {A} d (l : list A) bs :
  d < max_depth -> (N.of_nat (length l) < 100000)%N -> Forall2 (fun _ b => raw_ev (S d) b) l bs ->
  raw_ev d (head 4 (N.of_nat (length l)) ++ concat bs).
Proof.
  intros Hd Hl HF. rewrite (Forall2_length _ _ _ HF) in *. apply Forall2_right in HF.
  refine (ev_S _ _ _ (raw_ev_seq _ _ HF)). intros f E r. rewrite <- app_assoc. cbn [dec_raw]. read_back.
  rewrite decode_len_of by easy. cbn [bind N.eqb Pos.eqb].
  now rewrite (not_deep _ Hd), Nat2N.id, E.
Qed.

Lemma raw_ev_tag d n a : d < max_depth -> raw_ev (S d) a -> raw_ev d (head 6 n ++ a).
Proof.
  intros Hd Ha. refine (ev_S _ _ _ Ha). intros f E r.
  rewrite <- app_assoc. cbn [dec_raw]. read_back. now rewrite (not_deep _ Hd), E.
Qed.

(* maps: the scanner sees 2 * size items *)
Definition kv_items (kvs : list (bytes * bytes)) : list bytes := flat_map (fun kv => [fst kv; snd kv]) kvs.
Lemma kv_items_concat kvs : concat (kv_items kvs) = concat (map (fun kv => fst kv ++ snd kv) kvs).
Proof.
  unfold kv_items. induction kvs as [|[k v] kvs IH]; [reflexivity|]. cbn [flat_map map concat app fst snd].
  now rewrite IH, <- app_assoc.
Qed.
Lemma kv_items_length kvs : length (kv_items kvs) = 2 * length kvs.
Proof. unfold kv_items. induction kvs as [|[k v] kvs IH]; [reflexivity|]. cbn [flat_map app length] in *. lia. Qed.

Lemma raw_ev_map {A} d (m : list A) kvs :
  d < max_depth -> (N.of_nat (length m) < 50000)%N ->
  Forall2 (fun _ kv => raw_ev (S d) (fst kv) /\ raw_ev (S d) (snd kv)) m kvs ->
  raw_ev d (head 5 (N.of_nat (length m)) ++ concat (map (fun kv => fst kv ++ snd kv) (kv_sort kvs))).
Proof.
  intros Hd Hl HF. rewrite (Forall2_length _ _ _ HF) in *. apply Forall2_right in HF.
  assert (HI : Forall (raw_ev (S d)) (kv_items (kv_sort kvs))).
  { rewrite (kv_sort_perm kvs) in HF. induction HF as [|[k v] l [H1 H2] _ IH]; cbn [kv_items flat_map app fst snd]; auto. }
  rewrite <- kv_items_concat. refine (ev_S _ _ _ (raw_ev_seq _ _ HI)). intros f E r.
  rewrite kv_items_length, <- (Permutation_length (kv_sort_perm kvs)) in E.
  rewrite <- app_assoc. cbn [dec_raw]. read_back. rewrite decode_len_of by (unfold max_len; cbn; lia).
  cbn [bind N.eqb Pos.eqb]. rewrite (not_deep _ Hd). replace (N.to_nat _) with (2 * length kvs) by lia. now rewrite E.
Qed.

(* as dec_enc_reads: induction on the encoder's fuel, one case per constructor of rw, each closed by the lemma for its
   shape (the raw_ev lemmas), the parts by the induction hypothesis.  A tag is a level of nesting for the raw scanner, hence
   d < max_depth in rw_tag, rw_any_tag, rw_tagged and rw_ts. *)
Theorem enc_raw_ev fe : forall d t v b, rw d t v -> enc fe t v = Ok b -> raw_ev d b.
Proof.
  induction fe as [|fe IH]; intros d t v b Hrw; [discriminate|].
  destruct Hrw; rewrite ?enc_tagged, ?enc_bstr; erewrite ?enc_struct by eassumption.
  - (* rw_int *) destruct t; try contradiction; cbn [enc]; [..|destruct (z =? 0)%Z]; intros [= <-]; auto using raw_ev_int.
    now apply (raw_ev_str d 3%N []); auto.
  - (* rw_bool *) destruct t; try contradiction; intros [= <-];
      (destruct b0; [apply (raw_ev_simple d 21)|apply (raw_ev_simple d 20)]; lia).
  - (* rw_null *) destruct t; try contradiction; intros [= <-]; apply (raw_ev_simple d 22); lia.
  - (* rw_bytes *) destruct t; try contradiction; intros [= <-]; apply raw_ev_str; auto.
  - (* rw_text *) destruct t; try contradiction; intros [= <-]; apply raw_ev_str; auto.
  - (* rw_list *) match goal with H : _ \/ _ |- _ => destruct H as [-> | [t' ->]] end; intros (bs & EM & [= <-])%bind_Ok_inv;
      (eapply raw_ev_array; eauto; eapply mapM_Forall2; [|eassumption..]; intros ? ?; apply IH).
  - (* rw_struct *) intros (bs & EM & [= <-])%bind_Ok_inv. eapply raw_ev_array; eauto.
    eapply mapM_Forall2; [|eassumption..]. intros ? ?; apply IH.
  - (* rw_map *) match goal with H : _ \/ _ |- _ => destruct H as [(-> & -> & ->) | ->] end; cbn [enc];
      intros (kvs & EM & [= <-])%bind_Ok_inv; (eapply raw_ev_map; eauto; eapply mapM_Forall2; [|eassumption..]);
      intros kv e [W1 W2] [E1 E2]%enc_pair_Ok; eauto.
  - (* rw_any_tag *) intros [= <-]. apply raw_ev_tag; auto. now apply raw_ev_iff.
  - (* rw_tag *) intros (a & EA & [= <-])%bind_Ok_inv. apply raw_ev_tag; eauto.
  - (* rw_tagged *) intros (a & EA & [= <-])%bind_Ok_inv. apply raw_ev_tag; eauto.
  - (* rw_bstr *) intros (a & EA & [= <-])%bind_Ok_inv. apply raw_ev_str; eauto.
  - (* rw_raw *) intros [= <-]. now apply raw_ev_iff.
  - (* rw_ptr *) rewrite enc_ptr by assumption. eauto.
  - (* rw_prot *) cbn [enc]. destruct m.
    + intros [= <-]. now apply (raw_ev_str d 2%N []); auto.
    + intros (a & EA & [= <-])%bind_Ok_inv. apply raw_ev_str; eauto.
  - (* rw_ts *) intros [= <-]. apply (raw_ev_tag d 1%N (enc_int z)); auto using raw_ev_int.
Qed.

Theorem enc_raw fe : forall d t v b,
  rw d t v -> enc fe t v = Ok b -> forall r, exists f0, forall f, f0 <= f -> dec_raw f d (b ++ r) = Ok (b, r).
Proof. intros d t v b H E. exact (reads_at _ _ _ (enc_raw_ev fe d t v b H E)). Qed.

Corollary enc_raw_item fe d t v b : rw d t v -> enc fe t v = Ok b -> raw_item d b.
Proof. intros H E. apply raw_ev_iff. exact (enc_raw_ev fe d t v b H E). Qed.

(* structural replacement for the semantic premise of wf_tagged *)
Theorem wf_tagged_rw O_der d n t v :
  (n < two64)%N -> wf O_der 0 t v -> d < max_depth -> rw (S d) t v -> wf O_der d (TTagged n t) v.
Proof.
  intros Hn Hw Hd Hr. apply wf_tagged; [assumption|assumption|].
  intros fe a E. eapply enc_raw_item; [|exact E]. now apply rw_tagged.
Qed.

(* non-vacuity of wf_tagged_rw: the tagged struct of RoundTrip.Examples.ex_tagged, without running dec_raw *)
Example ex_tagged_rw :
  wf Examples.OD 0 (TTagged 18 Examples.st1) (VList [VInt 5; VText []; VBool true]).
Proof.
  apply wf_tagged_rw.
  - unfold two64. lia.
  - apply (wfb_sound Examples.OD 50). vm_compute. reflexivity.
  - unfold max_depth. lia.
  - apply (rw_struct 1 _ _ [(false, TInt KU8, VInt 5); (true, TText, VText []); (false, TBool, VBool true)]).
    + unfold max_depth. lia.
    + reflexivity.
    + cbn. lia.
    + cbn [omit_pass andb is_empty_val Z.eqb]. repeat constructor; try lia.
Qed.

Print Assumptions enc_raw.
Print Assumptions wf_tagged_rw.
