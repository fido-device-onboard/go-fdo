(* RoundTripHead.v — reading back a head written by `head`. *)
From FDO Require Import Cbor.Typed Cbor.Canon.
Local Open Scope N_scope.

Lemma read_head_mk mt ai a r :
  mt < 8 -> ai < 32 -> length a = add_len ai ->
  read_head (byte_of_N (mt * 32 + ai) :: a ++ r) = Ok (mkhd mt ai a, r).
Proof.
  intros Hmt Hai Hl. cbn [read_head]. rewrite to_of_N by lia.
  replace ((mt * 32 + ai) mod 32) with ai by lia.
  replace ((mt * 32 + ai) / 32) with mt by lia.
  rewrite (take_app _ a r Hl). reflexivity.
Qed.

Definition two64 : N := 18446744073709551616.

Lemma add_len_imm ai : ai < 24 -> add_len ai = 0%nat.
Proof.
   unfold add_len. repeat match goal with |- context [?a =? ?b] => destruct (N.eqb_spec a b); [lia|] end. reflexivity.
Qed.

(* an argument below 24 sits in the first byte; otherwise 1, 2, 4 or 8 bytes follow that hold it *)
Lemma head_ai_cases n :
  n < 24 /\ head_ai n = n /\ preferred_extra n = 0%nat \/
  24 <= head_ai n < 28 /\ add_len (head_ai n) = preferred_extra n /\ preferred_extra n <> 0%nat /\
  (n < two64 -> n < 256 ^ N.of_nat (preferred_extra n)).
Proof.
  unfold head_ai, preferred_extra, two64.
  repeat (match goal with |- context [n <? ?b] => destruct (N.ltb_spec n b) end; cbn iota);
    [left; auto|right; repeat split; solve [lia|discriminate|trivial]..].
Qed.

(* what `head mt n` is read back as (head_bytes_of: its bytes are `head mt n` again) *)
Definition hd_of (mt n : N) : hd := mkhd mt (head_ai n) (be (preferred_extra n) n).

Lemma read_head_head mt n r : mt < 8 -> read_head (head mt n ++ r) = Ok (hd_of mt n, r).
Proof.
  intros Hmt. rewrite head_eq. apply read_head_mk; [lia|pose proof (head_ai_lt n); lia|rewrite be_length].
  destruct (head_ai_cases n) as [(H & -> & ->)|(_ & -> & _)]; [now rewrite add_len_imm|reflexivity].
Qed.

Lemma arg_val_of mt n : n < two64 -> arg_val (hd_of mt n) = n.
Proof.
  intros Hn. unfold arg_val, hd_of. cbn [h_ai h_add].
  destruct (head_ai_cases n) as [(H & -> & _)|(H & _ & _ & Hb)].
  - now apply N.ltb_lt in H as ->.
  - destruct (N.ltb_spec (head_ai n) 24); [lia|]. apply of_be_be, Hb, Hn.
Qed.

Lemma arg_unwrap_of mt n : n < two64 -> arg_unwrap (hd_of mt n) = n.
Proof.
  intros Hn. unfold arg_unwrap, hd_of. cbn [h_ai h_add].
  destruct (head_ai_cases n) as [(_ & -> & ->)|(_ & _ & Hk & Hb)]; [reflexivity|].
  destruct (be _ n) eqn:E; [|rewrite <- E; apply of_be_be, Hb, Hn].
  apply (f_equal (@length _)) in E. now rewrite be_length in E.
Qed.

(* the length the raw scanner takes from a head (decode_len): maps count their pairs double *)
Lemma decode_len_of mt n :
  let k := if mt =? 5 then n * 2 else n in k < max_len -> decode_len (hd_of mt n) = Ok (N.to_nat k).
Proof.
  intros k Hk. unfold decode_len. cbn [hd_of h_mt]. 
  assert (H : n < two64 /\ (if mt =? 5 then (n * 2) mod 18446744073709551616 else n) = k)
    by (unfold two64, max_len in *; subst k; destruct (mt =? 5); [rewrite N.mod_small|]; lia).
  rewrite arg_val_of, (proj2 H) by apply H. now apply N.leb_gt in Hk as ->.
Qed.

Lemma head_bytes_of mt n : head_bytes (hd_of mt n) = head mt n.
Proof. symmetry. apply head_eq. Qed.

Lemma is_null_of mt n : mt < 7 -> is_null_hd (hd_of mt n) = false.
Proof. unfold is_null_hd. cbn [hd_of h_mt]. destruct (N.eqb_spec mt 7); [lia|reflexivity]. Qed.

(* one-byte simple values of major type 7 (false/true/null) *)
Lemma read_head_simple ai r :
  ai < 24 -> read_head (byte_of_N (224 + ai) :: r) = Ok (mkhd 7 ai [], r).
Proof.
  intros H. change (224 + ai) with (7 * 32 + ai). apply (read_head_mk 7 ai [] r); [lia|lia|now rewrite add_len_imm].
Qed.

(* 0xf6 and 0xf7, the heads of null and undefined: what a decoder of a pointer takes for nil *)
Definition null_byte (x : byte) : bool := (Byte.to_N x =? 246) || (Byte.to_N x =? 247).

Lemma read_head_null_byte x b h r : read_head (x :: b) = Ok (h, r) -> is_null_hd h = null_byte x.
Proof.
  cbn [read_head]. destruct (take _ b) as [[a r']|]; [|discriminate].
  intros H; injection H as <- <-. unfold is_null_hd, null_byte. cbn [h_mt h_ai].
  pose proof (to_N_lt x). lia.
Qed.

(* whatever `head mt n`, mt < 7, is followed by, a decoder for a pointer does not take it for nil *)
Lemma null_byte_head mt n : mt < 7 -> null_byte (byte_of_N (mt * 32 + head_ai n)) = false.
Proof.
  intros H. pose proof (head_ai_lt n). unfold null_byte. rewrite to_of_N by lia.
  apply orb_false_iff. split; lia.
Qed.

Lemma h_mt_of mt n : h_mt (hd_of mt n) = mt.
Proof. reflexivity. Qed.

#[global] Hint Rewrite h_mt_of arg_val_of arg_unwrap_of is_null_of head_bytes_of using (unfold two64 in *; lia) : hd.

(* after [cbn [dec]] or [cbn [dec_raw]] on input that starts with [head mt n], mt a numeral:
   read the head back and decide the tests on it *)
Ltac read_back :=
  rewrite read_head_head by lia; cbn [bind]; autorewrite with hd; cbn [N.eqb Pos.eqb orb andb].
