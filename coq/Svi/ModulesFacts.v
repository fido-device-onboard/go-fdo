(* Svi/ModulesFacts.v — owner modules run one after another to completion; IsDone exactly at the last completion. *)
From FDO Require Import Svi.Modules.

Lemma firstn_app_exact {A} (l1 l2 : list A) : firstn (length l1) (l1 ++ l2) = l1.
Proof. induction l1; cbn; [destruct l2; reflexivity|now f_equal]. Qed.

Definition total (plan : list nat) : nat := fold_right (fun k acc => Nat.max k 1 + acc) 0 plan.
Definition produce_rounds (flags : list bool) : nat := length (filter negb flags).

(* All that a reply depends on is the list of calls still to be made, in order. *)
Definition todo (s : ost) : list nat := ideal (o_done s) (o_rest s).

Lemma ideal_length plan : forall from, length (ideal from plan) = total plan.
Proof.
  induction plan as [|k r IH]; intros from; cbn [ideal total fold_right]; [reflexivity|].
  rewrite app_length, repeat_length, IH. reflexivity.
Qed.

Lemma ideal_cons d k rest :
  ideal d (k :: rest) = d :: (if k <=? 1 then ideal (S d) rest else ideal d ((k - 1) :: rest)).
Proof.
  cbn [ideal]. destruct (Nat.leb_spec k 1).
  - now replace (Nat.max k 1) with 1 by lia.
  - now replace (Nat.max k 1) with (S (Nat.max (k - 1) 1)) by lia.
Qed.

Lemma oround_spec s more :
  snd (oround s more) = match todo s with
                        | [] => OError
                        | m :: l => if more then ONothing else OProduced m (match l with [] => true | _ => false end)
                        end /\
  todo (fst (oround s more)) = match todo s with [] => [] | m :: l => if more then m :: l else l end.
Proof.
  unfold oround, produce, todo. destruct s as [d [|k rest]]; cbn [o_done o_rest]; [split; reflexivity|].
  rewrite ideal_cons. destruct more; [split; [reflexivity|apply ideal_cons]|].
  destruct (k <=? 1); (split; [|reflexivity]); cbn [snd]; [destruct rest|]; now rewrite 1?ideal_cons.
Qed.

(* the run in closed form: after n produce rounds the first n calls of the ideal order have been made, and IsDone has
   gone out iff that was all of them *)
Theorem orun_spec flags : forall s,
  produced (snd (orun s flags)) = firstn (produce_rounds flags) (todo s) /\
  dones (snd (orun s flags)) =
    match todo s with [] => 0 | _ => if length (todo s) <=? produce_rounds flags then 1 else 0 end.
Proof.
  induction flags as [|more r IH]; intros s; cbn [orun].
  - cbn. destruct (todo s); split; reflexivity.
  - destruct (oround_spec s more) as [X T]. destruct (oround s more) as [s1 x]. cbn [fst snd] in X, T. subst x.
    specialize (IH s1). rewrite T in IH.
    destruct (orun s1 r) as [s2 xs]. cbn [snd] in *. unfold produce_rounds, dones, produced in *.
    destruct IH as [P D]. destruct (todo s) as [|m l]; [|destruct more; [|destruct l]];
      cbn [filter negb length flat_map app firstn]; rewrite P, D, ?firstn_nil; split; reflexivity.
Qed.

Lemma todo_nil s : todo s = [] -> o_rest s = [].
Proof. unfold todo. destruct (o_rest s); [reflexivity|]. rewrite ideal_cons. discriminate. Qed.

(* whatever the device's IsMore flags: the modules that produce, in order, form a prefix of the ideal order *)
Theorem produced_is_prefix flags : forall s,
  exists n, produced (snd (orun s flags)) = firstn n (ideal (o_done s) (o_rest s)).
Proof. exists (produce_rounds flags). apply orun_spec. Qed.

Theorem done_at_most_once flags : forall s, dones (snd (orun s flags)) <= 1.
Proof. intros s. rewrite (proj2 (orun_spec flags s)). destruct (todo s); [|destruct (_ <=? _)]; lia. Qed.

(* IsDone is reported exactly when the number of produce rounds reaches the total the modules need *)
Theorem done_iff_all_completed flags : forall s, o_rest s <> [] ->
  dones (snd (orun s flags)) = (if total (o_rest s) <=? produce_rounds flags then 1 else 0).
Proof.
  intros s NE. rewrite (proj2 (orun_spec flags s)). destruct (todo s) eqn:E; [destruct (NE (todo_nil s E))|].
  rewrite <- E. unfold todo. rewrite ideal_length. reflexivity.
Qed.

(* after the last module a further DeviceServiceInfo is refused *)
Theorem after_done_error s f : o_rest s = [] -> oround s f = (s, OError).
Proof. intros E. unfold oround. now rewrite E. Qed.
