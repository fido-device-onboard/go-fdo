(* Svi/DevmodFacts.v — the owner obtains exactly the device's module list, whatever the MTU cuts it into. *)
From FDO Require Import Svi.Devmod.
Local Open Scope nat_scope.

(* start indices are the running count of names already sent *)
Fixpoint consecutive (st : nat) (cs : list chunk) : Prop :=
  match cs with [] => True | (s, l) :: r => s = st /\ consecutive (st + length l) r end.

Section Facts.
  Variable fits : nat -> list bytes -> bool.
  Notation split_go := (split_go fits).

  (* the chunks in order hold exactly the names, nothing lost, duplicated or reordered; each is announced at the
     count of names sent before it; each is empty or fits the MTU *)
  Lemma split_go_spec fuel : forall start cur rest cs,
    split_go fuel start cur rest = Some cs ->
    concat (map snd cs) = cur ++ rest /\ consecutive start cs /\
    ((cur = [] \/ fits start cur = true) -> Forall (fun c => snd c = [] \/ fits (fst c) (snd c) = true) cs).
  Proof.
    induction fuel as [|f IH]; intros start cur rest cs; cbn [Devmod.split_go]; [discriminate|].
    destruct rest as [|m rest'].
    - intros [= <-]. cbn.  auto.
    - destruct (fits start (cur ++ [m])) eqn:F.
      + intros H. apply IH in H as (C & S & A). rewrite <- app_assoc in C. auto.
      + destruct cur as [|c0 cur']; [discriminate|].
        destruct (split_go f _ [] _) as [cs'|] eqn:E; intros [= <-]. apply IH in E as (C & S & A).
        cbn [map snd concat consecutive]. rewrite C. repeat split; [exact S|].  auto.
  Qed.

  (* the packing always succeeds when every single name fits on its own *)
  Lemma split_total fuel : forall start cur rest,
    (forall st m, In m rest -> fits st [m] = true) ->
    2 * length rest + (match cur with [] => 0 | _ => 1 end) < fuel ->
    split_go fuel start cur rest <> None.
  Proof.
    induction fuel as [|f IH]; intros start cur rest SINGLE LT; [lia|]. cbn [Devmod.split_go].
    destruct rest as [|m rest']; [discriminate|].
    destruct (fits start (cur ++ [m])) eqn:F.
    - apply IH; [intros; apply SINGLE; now right|]. cbn [length] in *. destruct cur; cbn; lia.
    - destruct cur as [|c0 cur']; [cbn in F; rewrite SINGLE in F by (now left); discriminate F|].
      specialize (IH (start + length (c0 :: cur')) [] (m :: rest') SINGLE ltac:(cbn [length] in *; lia)).
      destruct (split_go f _ _ _); [discriminate | exact IH].
  Qed.
End Facts.

Lemma no_empty_intro l : (forall x, In x l -> x <> []) -> existsb is_empty l = false.
Proof.
  induction l as [|x r IH]; intros H; [reflexivity|]. cbn [existsb].
  rewrite IH by (intros; apply H; now right). destruct x; [destruct (H [] (or_introl eq_refl) eq_refl)|reflexivity].
Qed.

(* the first free slot of a list filled up to [done] is the one after [done] *)
Lemma first_empty_fill m done : existsb is_empty done = false -> forall i,
  match first_empty (done ++ repeat [] m) i with Some idx => idx | None => length done + i end = length done + i.
Proof.
  induction done as [|x r IH]; cbn [existsb app first_empty length]; intros F i; [now destruct m|].
  apply orb_false_elim in F as [-> F]. rewrite !Nat.add_succ_comm. now apply IH.
Qed.

(* overwriting the slice [h] *)
Lemma splice {A} (a h x b : list A) : length h = length x ->
  firstn (length a) (a ++ h ++ b) ++ x ++ skipn (length a + length x) (a ++ h ++ b) = a ++ x ++ b.
Proof.
  intros <-. rewrite firstn_app, firstn_all, Nat.sub_diag, app_nil_r.
  rewrite <- app_length, (app_assoc a h), skipn_app, skipn_all, Nat.sub_diag. reflexivity.
Qed.

(* a chunk announced at the number of names present goes into the free slots that follow them *)
Lemma collect_chunk_fill done names n : existsb is_empty (done ++ names) = false ->
  collect_chunk (done ++ repeat [] (length names + n)) (length done) (length names) names =
    Some (done ++ names ++ repeat [] n).
Proof.
  rewrite existsb_app. intros F. apply orb_false_elim in F as [D N]. unfold collect_chunk.
  pose proof (first_empty_fill (length names + n) done D 0) as S. rewrite Nat.add_0_r in S. rewrite S, N, Nat.eqb_refl.
  rewrite app_length, repeat_length, !(proj2 (Nat.ltb_ge _ _)) by lia.
  rewrite repeat_app, splice by apply repeat_length. reflexivity.
Qed.

Theorem collect_consecutive cs : forall done,
  existsb is_empty (done ++ concat (map snd cs)) = false -> consecutive (length done) cs ->
  collect (done ++ repeat [] (length (concat (map snd cs)))) cs = Some (done ++ concat (map snd cs)).
Proof.
  induction cs as [|[st names] r IH]; intros done; cbn [collect map snd concat consecutive length repeat].
  - reflexivity.
  - rewrite app_length, app_assoc. intros F [-> C]. rewrite collect_chunk_fill, app_assoc.
    + apply IH; [exact F | now rewrite app_length].
    + rewrite existsb_app in F. now apply orb_false_elim in F.
Qed.

(* device and owner together: whatever the MTU cuts the list into, the owner ends up with exactly the device's list *)
Theorem devmod_roundtrip fits names cs :
  (forall x, In x names -> x <> []) -> split fits names = Some cs ->
  collect (repeat [] (length names)) cs = Some names /\ concat (map snd cs) = names.
Proof.
  intros NN S. apply split_go_spec in S as (C & S & _). cbn [app] in C. split; [|exact C].
  rewrite <- C. apply (collect_consecutive cs []); [rewrite C; now apply no_empty_intro | exact S].
Qed.

Theorem devmod_split_total fits names :
  (forall st m, In m names -> fits st [m] = true) -> split fits names <> None.
Proof. intros H. unfold split. apply split_total; [exact H|]. cbn. lia. Qed.
