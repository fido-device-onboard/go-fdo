(* ChunkFacts.v — properties of the ServiceInfo chunking model (Svi/Chunk.v):
   every chunk fits its budget, the reader never fails on well-formed input, chunking is lossless for every
   schedule of size budgets, the batching loop respects the MTU and terminates, an explicit yield ends the batch. *)
From FDO Require Import Svi.Chunk.
Local Open Scope Z_scope.

(* the key of the open reader was written with the shortest CBOR head (what KV.Size assumes of it) *)
Definition key_canon (c : cur) : Prop := Z.of_nat (length (c_rkey c)) = cbor_len (length (c_key c)).

Definition wf_item (content : bytes) : Prop :=
  content = [] \/ exists c, parse_item content = Some (Some c) /\ key_canon c.

Definition wf_state (st : cstate) : Prop :=
  (forall c, cs_cur st = Some c -> key_canon c) /\ Forall wf_item (cs_queue st).

Definition cur_flat (c : option cur) : list (bytes * bytes) :=
  match c with Some c => [(c_key c, c_rest c)] | None => [] end.

Definition item_flat (content : bytes) : list (bytes * bytes) :=
  match parse_item content with Some (Some c) => [(c_key c, c_rest c)] | _ => [] end.

Definition flat_q (q : list bytes) : list (bytes * bytes) := flat_map item_flat q.

Definition flat (st : cstate) : list (bytes * bytes) := cur_flat (cs_cur st) ++ flat_q (cs_queue st).

(* what the receiver makes of a sequence of chunks: empty ones leave no trace, neighbours with the same key are one *)
Definition norm (l : list (bytes * bytes)) : list (bytes * bytes) :=
  unchunk (filter (fun kv => negb (match snd kv with [] => true | _ => false end)) l).

Definition ucons (kv : bytes * bytes) (u : list (bytes * bytes)) : list (bytes * bytes) :=
  match u with
  | (k', v') :: r' => if bytes_eqb (fst kv) k' then (fst kv, snd kv ++ v') :: r' else kv :: (k', v') :: r'
  | [] => [kv]
  end.

Lemma unchunk_cons k v r : unchunk ((k, v) :: r) = ucons (k, v) (unchunk r).
Proof. cbn [unchunk ucons fst snd].  reflexivity. Qed.

Lemma norm_nil : norm [] = [].
Proof. reflexivity. Qed.

Lemma norm_cons kv l : norm (kv :: l) = match snd kv with [] => norm l | _ => ucons kv (norm l) end.
Proof. destruct kv as [k [|x v]]; [reflexivity | apply unchunk_cons]. Qed.

Lemma norm_drop_empty k l : norm ((k, []) :: l) = norm l.
Proof. reflexivity. Qed.

Lemma norm_cons_congr x l1 l2 : norm l1 = norm l2 -> norm (x :: l1) = norm (x :: l2).
Proof. intros H. rewrite !norm_cons, H. reflexivity. Qed.

Lemma ucons_ucons k a b u : ucons (k, a) (ucons (k, b) u) = ucons (k, a ++ b) u.
Proof.
  destruct u as [|[k' v'] r']; cbn [ucons fst snd].
  - rewrite bytes_eqb_refl. reflexivity.
  - destruct (bytes_eqb k k') eqn:E; cbn [ucons fst snd].
    + rewrite bytes_eqb_refl, app_assoc. reflexivity.
    + rewrite bytes_eqb_refl. reflexivity.
Qed.

Lemma norm_merge k a b l : norm ((k, a) :: (k, b) :: l) = norm ((k, a ++ b) :: l).
Proof.
  rewrite !norm_cons. cbn [snd]. destruct a as [|x a]; [reflexivity|]. destruct b as [|y b].
  - rewrite app_nil_r. reflexivity.
  - apply ucons_ucons.
Qed.

Lemma ucons_not_nil kv u : ucons kv u <> [].
Proof. destruct u as [|[k' v'] r']; cbn [ucons]; [discriminate|]. destruct (bytes_eqb (fst kv) k'); discriminate. Qed.

Lemma cbor_len_ge1 n : 1 <= cbor_len n.
Proof. unfold cbor_len. destruct (Nat.ltb_spec n 24); [lia|]. destruct (Nat.ltb_spec n 256); lia. Qed.

Lemma kv_size_ge3 k v : 3 <= kv_size k v.
Proof. unfold kv_size. pose proof (cbor_len_ge1 (length k)). pose proof (cbor_len_ge1 (length v)). lia. Qed.

(* maxOverhead reserves the head of the value's byte string at the width the room calls for: 1, 2 or 3 bytes *)
Lemma kv_fits c size v :
  key_canon c -> Z.of_nat (length v) <= size - max_overhead (length (c_rkey c)) size -> kv_size (c_key c) v <= size.
Proof.
  unfold key_canon, kv_size. intros <-. unfold max_overhead, cbor_len.
  remember (1 + Z.of_nat (length (c_rkey c)) + 1) as mo.
  destruct (Z.leb_spec 24 (size - mo));
    [destruct (Z.leb_spec 256 (size - (mo + 1))) | destruct (Z.leb_spec 256 (size - mo))];
    (destruct (Nat.ltb_spec (length v) 24); [|destruct (Nat.ltb_spec (length v) 256)]); lia.
Qed.

Lemma try_cur_spec c size :
  key_canon c ->
  match try_cur c size with
  | TRes CTooSmall c' => c' = Some c
  | TRes (CKV k v) c' =>
      v <> [] /\ kv_size k v <= size /\
      (forall c'', c' = Some c'' -> key_canon c'') /\
      (forall l, norm ((k, v) :: cur_flat c' ++ l) = norm ((c_key c, c_rest c) :: l))
  | TRes _ _ => False
  | TExhausted => c_rest c = []
  end.
Proof.
  intros Hk. unfold try_cur.
  set (mo := max_overhead (length (c_rkey c)) size).
  destruct (Z.leb_spec (size - mo) 0) as [Hs|Hs]; [reflexivity|]. 
  pose proof (fun v => kv_fits c size v Hk) as Fit. fold mo in Fit.
  destruct (Nat.leb_spec (Z.to_nat (size - mo)) (length (c_rest c))) as [Hw|Hw].
  - pose proof (firstn_length_le _ Hw) as Hl. split; [|split; [|split]].
    + intros E. rewrite E in Hl. cbn [length] in Hl. lia.
    + apply Fit. lia.
    + intros c'' [= <-]. exact Hk.
    + intros l. cbn [cur_flat c_key c_rest app]. rewrite norm_merge, firstn_skipn. reflexivity.
  - destruct (c_rest c) as [|b rest]; [reflexivity|].
    split; [discriminate|]. split; [apply Fit; lia|]. split; [discriminate | reflexivity].
Qed.

(* What one call promises, against the normal form [orig] of the content and the length [qlen] of the queue before it.
   The queue never grows, and a forced break consumes its marker: this is what makes the batching loop terminate. *)
Definition chunk_post (orig : list (bytes * bytes)) (qlen : nat) (size : Z) (r : cres) (st' : cstate) : Prop :=
  (length (cs_queue st') <= qlen)%nat /\
  match r with
  | CKV k v => v <> [] /\ kv_size k v <= size /\ norm ((k, v) :: flat st') = orig
  | CTooSmall => norm (flat st') = orig /\ (cs_cur st' = None -> (length (cs_queue st') < qlen)%nat)
  | CEOF => orig = [] /\ norm (flat st') = []
  | CErr => False
  end.

Lemma chunk_post_le orig n m size r st' : (n <= m)%nat -> chunk_post orig n size r st' -> chunk_post orig m size r st'.
Proof.
  intros L [Q P]. split; [lia|]. destruct r; try exact P.
  split; [apply P | intros H; apply P in H; lia].
Qed.

Definition spec_at (size : Z) (st : cstate) : Prop :=
  wf_state st -> forall r st', read_chunk st size = (r, st') ->
  wf_state st' /\ chunk_post (norm (flat st)) (length (cs_queue st)) size r st'.

Lemma parse_item_nil : parse_item [] = Some None.
Proof. reflexivity. Qed.

Lemma flat_q_cons_some content c q :
  parse_item content = Some (Some c) -> flat_q (content :: q) = (c_key c, c_rest c) :: flat_q q.
Proof. intros H. unfold flat_q, item_flat. cbn [flat_map]. rewrite H. reflexivity. Qed.

Lemma flat_mkcs c q : flat (mkcs c q) = cur_flat c ++ flat_q q.
Proof. reflexivity. Qed.

(* with a reader open: it yields a chunk, or is exhausted and the call goes on with the queue *)
Lemma spec_cur size c q : spec_at size (mkcs None q) -> spec_at size (mkcs (Some c) q).
Proof.
  intros N [Hc Hq] r st'. cbn [cs_cur cs_queue] in Hc, Hq. pose proof (Hc c eq_refl) as Hk.
  pose proof (try_cur_spec c size Hk) as T.
  unfold read_chunk. cbn [cs_cur cs_queue]. rewrite flat_mkcs. cbn [cur_flat app].
  destruct (try_cur c size) as [[k v| | |] c'|]; try contradiction.
  - intros [= <- <-]. destruct T as (Hv & Hsz & Hc' & Hn). repeat split; auto. rewrite flat_mkcs. apply Hn.
  - intros [= <- <-]. subst c'. repeat split; auto. discriminate.
  - rewrite T, norm_drop_empty. apply N. split; [discriminate | exact Hq].
Qed.

(* with no reader open, next_reader on [content :: q] parsing to [c] is read_chunk with [c] open on [q] *)
Lemma spec_queue size q : spec_at size (mkcs None q).
Proof.
  induction q as [|content q IH]; intros [_ Hq] r st'; unfold read_chunk; cbn [cs_cur cs_queue next_reader] in *.
  - intros [= <- <-]. repeat split; auto. discriminate.
  - inversion Hq as [|? ? [-> | (c & Hp & Hk)] Hq'].
    + rewrite parse_item_nil. intros [= <- <-]. repeat split; cbn; auto; discriminate.
    + rewrite Hp, flat_mkcs, (flat_q_cons_some _ _ _ Hp). intros E.
      destruct (spec_cur size c q IH) with (2 := E) as [W P].
      * split; [intros ? [= <-]; exact Hk | exact Hq'].
      * split; [exact W|]. eapply chunk_post_le; [|exact P]. cbn. lia.
Qed.

Lemma read_chunk_spec size st : spec_at size st.
Proof. destruct st as [[c|] q]; [apply spec_cur|]; apply spec_queue. Qed.

Theorem read_chunk_fits st size k v st' :
  wf_state st -> read_chunk st size = (CKV k v, st') -> kv_size k v <= size.
Proof. intros Hw E. apply (read_chunk_spec _ _ Hw _ _ E). Qed.

Theorem read_chunk_nonempty st size k v st' :
  wf_state st -> read_chunk st size = (CKV k v, st') -> v <> [].
Proof. intros Hw E. apply (read_chunk_spec _ _ Hw _ _ E). Qed.

Theorem read_chunk_wf st size r st' :
  wf_state st -> read_chunk st size = (r, st') -> wf_state st'.
Proof. intros Hw E. apply (read_chunk_spec _ _ Hw _ _ E). Qed.

Theorem read_chunk_no_err st size r st' :
  wf_state st -> read_chunk st size = (r, st') -> r <> CErr.
Proof. intros Hw E ->. apply (read_chunk_spec _ _ Hw _ _ E). Qed.

Theorem read_chunk_lossless st size r st' :
  wf_state st -> read_chunk st size = (r, st') ->
  match r with
  | CKV k v => norm ((k, v) :: flat st') = norm (flat st)
  | CTooSmall => norm (flat st') = norm (flat st)
  | CEOF => norm (flat st) = [] /\ norm (flat st') = []
  | CErr => False
  end.
Proof.
  intros Hw E. destruct (read_chunk_spec _ _ Hw _ _ E) as (_ & _ & P). destruct r; apply P.
Qed.

(* Calls read_chunk once per budget; collects the chunks; goes on after CTooSmall; stops at CEOF / CErr or when the
   budgets run out.  The second component is the result of the last call made (CTooSmall if no call was made). *)
Fixpoint drain (st : cstate) (sizes : list Z) : list (bytes * bytes) * cres * cstate :=
  match sizes with
  | [] => ([], CTooSmall, st)
  | s :: rest =>
    match read_chunk st s with
    | (CKV k v, st1) =>
      match rest with
      | [] => ([(k, v)], CKV k v, st1)
      | _ => let '(e, l, st2) := drain st1 rest in ((k, v) :: e, l, st2)
      end
    | (CTooSmall, st1) => drain st1 rest
    | (CEOF, st1) => ([], CEOF, st1)
    | (CErr, st1) => ([], CErr, st1)
    end
  end.

Lemma drain_spec sizes : forall st emitted last st',
  wf_state st -> drain st sizes = (emitted, last, st') ->
  wf_state st' /\ last <> CErr /\ norm (emitted ++ flat st') = norm (flat st) /\
  (last = CEOF -> norm emitted = norm (flat st)).
Proof.
  induction sizes as [|s rest IH]; intros st emitted last st' Hw; cbn [drain].
  - intros [= <- <- <-]. split; [exact Hw|]. now repeat split.
  - destruct (read_chunk st s) as [r st1] eqn:Er.
    destruct (read_chunk_spec _ _ Hw _ _ Er) as (Hw1 & _ & P).
    destruct r as [k v| | |].
    + destruct P as (_ & _ & <-). destruct rest as [|s2 rest2].
      * intros [= <- <- <-]. split; [exact Hw1|]. now repeat split.
      * destruct (drain st1 _) as [[e l] st2] eqn:Ed. intros [= <- <- <-].
        destruct (IH _ _ _ _ Hw1 Ed) as (Hw2 & Hl & Hn & Heof).
        split; [exact Hw2|]. split; [exact Hl|]. split; [|intros El]; apply norm_cons_congr; auto.
    + destruct P as [<- _]. now apply IH.
    + intros [= <- <- <-]. destruct P as [-> P1]. split; [exact Hw1|]. now repeat split.
    + contradiction.
Qed.

Theorem drain_lossless st sizes emitted last st' :
  wf_state st -> drain st sizes = (emitted, last, st') ->
  last <> CErr /\ norm (emitted ++ flat st') = norm (flat st).
Proof. intros Hw E. destruct (drain_spec _ _ _ _ _ Hw E) as (_ & H1 & H2 & _). split; assumption. Qed.

Theorem drain_wf st sizes emitted last st' :
  wf_state st -> drain st sizes = (emitted, last, st') -> wf_state st'.
Proof. intros Hw E. apply (drain_spec _ _ _ _ _ Hw E). Qed.

Theorem drain_complete st sizes emitted last st' :
  wf_state st -> drain st sizes = (emitted, last, st') -> last = CEOF -> norm emitted = norm (flat st).
Proof. intros Hw E. apply (drain_spec _ _ _ _ _ Hw E). Qed.

Lemma batch_size_cons k v l : batch_size ((k, v) :: l) = kv_size k v + batch_size l.
Proof. reflexivity. Qed.

(* The loop, whatever way it ends.  A round: what it adds to the message fits the room that was left, and nothing is
   lost.  A failure: the one way out through RFail that a well-formed state can take.  Out of fuel: every turn of the
   loop either takes at least 3 bytes off the room or a marker off the queue, so the fuel was no more than their sum. *)
Lemma round_loop_spec mtu fuel : forall st max_read acc,
  wf_state st -> 0 <= max_read ->
  match round_loop fuel st max_read mtu acc with
  | RRound kvs more st' =>
      exists new, kvs = rev acc ++ new /\ batch_size new <= max_read /\ wf_state st' /\
                  norm (new ++ flat st') = norm (flat st)
  | RFail => exists st1 st2 c, wf_state st1 /\ read_chunk st1 mtu = (CTooSmall, st2) /\ cs_cur st2 = Some c
  | ROutOfFuel => (fuel <= Z.to_nat max_read + length (cs_queue st))%nat
  end.
Proof.
  induction fuel as [|f IH]; intros st max_read acc Hw Hm; cbn [round_loop]; [lia|].
  destruct (read_chunk st max_read) as [r st1] eqn:Er.
  destruct (read_chunk_spec _ _ Hw _ _ Er) as (Hw1 & Q & P).
  assert (Stop : exists new, rev acc = rev acc ++ new /\ batch_size new <= max_read /\ wf_state st1 /\
                                     norm (new ++ flat st1) = norm (flat st1)).
  { exists []. rewrite app_nil_r. auto. }
  destruct r as [k v| | |].
  - destruct P as (_ & Psz & <-). pose proof (kv_size_ge3 k v).
    specialize (IH st1 (max_read - kv_size k v) ((k, v) :: acc) Hw1 ltac:(lia)).
    destruct (round_loop f _ _ _ _) as [kvs more st'| |]; [|exact IH|lia].
    destruct IH as (new & -> & Hs & Hw2 & Hn). exists ((k, v) :: new). cbn [rev app]. rewrite <- app_assoc, batch_size_cons.
    split; [reflexivity|]. split; [lia|]. split; [exact Hw2 | now apply norm_cons_congr].
  - destruct P as [<- Q']. destruct (cs_cur st1) as [c|] eqn:C1; destruct (Z.eqb_spec max_read mtu) as [->|]; auto.
    + now exists st, st1, c.
    + specialize (IH st1 mtu acc Hw1 Hm). 
      destruct (round_loop f _ _ _ _); [exact IH | exact IH | lia].
  - destruct P as [-> P1]. rewrite P1 in Stop. exact Stop.
  - contradiction.
Qed.

Lemma round_spec st mtu : wf_state st -> 0 <= mtu ->
  match round st mtu with
  | RRound kvs more st' => batch_size kvs <= mtu /\ wf_state st' /\ norm (kvs ++ flat st') = norm (flat st)
  | RFail => exists st1 st2 c, wf_state st1 /\ read_chunk st1 mtu = (CTooSmall, st2) /\ cs_cur st2 = Some c
  | ROutOfFuel => False
  end.
Proof.
  intros Hw Hm. pose proof (round_loop_spec mtu (S (Z.to_nat mtu) + length (cs_queue st)) st mtu [] Hw Hm) as S.
  unfold round. destruct (round_loop _ _ _ _ _); [destruct S as (new & -> & S) | | lia]; exact S.
Qed.

Theorem round_fits st mtu kvs more st' :
  wf_state st -> 0 <= mtu -> round st mtu = RRound kvs more st' ->
  fold_right (fun kv a => kv_size (fst kv) (snd kv) + a) 0 kvs <= mtu /\ wf_state st' /\
  norm (kvs ++ flat st') = norm (flat st).
Proof. intros Hw Hm E. pose proof (round_spec st mtu Hw Hm) as S. now rewrite E in S. Qed.

Theorem round_total st mtu :
  wf_state st -> 0 <= mtu -> round st mtu <> ROutOfFuel.
Proof. intros Hw Hm E. pose proof (round_spec st mtu Hw Hm) as S. now rewrite E in S. Qed.

(* the only failure: a key is pending that does not fit even an empty message of this size *)
Theorem round_fails_only_on_unsendable_key st mtu :
  wf_state st -> 0 <= mtu -> round st mtu = RFail ->
  exists st1 st2 c, wf_state st1 /\ read_chunk st1 mtu = (CTooSmall, st2) /\ cs_cur st2 = Some c.
Proof. intros Hw Hm E. pose proof (round_spec st mtu Hw Hm) as S. now rewrite E in S. Qed.

Theorem yield_new_batch st size q :
  cs_cur st = None -> cs_queue st = [] :: q -> read_chunk st size = (CTooSmall, mkcs None q).
Proof. intros Hc Hq. unfold read_chunk. rewrite Hc, Hq. reflexivity. Qed.

(* a forced break at the very start of a message has nothing to separate: the round goes on as if it were not there *)
Theorem yield_round st mtu q :
  cs_cur st = None -> cs_queue st = [] :: q -> round st mtu = round (mkcs None q) mtu.
Proof.
  intros Hc Hq. unfold round. rewrite Hq. cbn [length cs_queue]. rewrite Nat.add_succ_r. cbn [round_loop].
  rewrite (yield_new_batch st mtu q Hc Hq). cbn [cs_cur]. rewrite Z.eqb_refl. reflexivity.
Qed.

(* ... and after at least one entry it ends the message with IsMoreServiceInfo set *)
Theorem yield_ends_message fuel st max_read mtu acc q :
  cs_cur st = None -> cs_queue st = [] :: q -> max_read <> mtu ->
  round_loop (S fuel) st max_read mtu acc = RRound (rev acc) true (mkcs None q).
Proof.
  intros Hc Hq NE. cbn [round_loop]. rewrite (yield_new_batch st max_read q Hc Hq). cbn [cs_cur].
  rewrite (proj2 (Z.eqb_neq _ _) NE). reflexivity.
Qed.

(* "devmod:active" *)
Definition ex_k1 : bytes := [x64; x65; x76; x6d; x6f; x64; x3a; x61; x63; x74; x69; x76; x65].
Definition ex_v1 : bytes := [xf5].                                            (* true *)
(* "devmod:os" *)
Definition ex_k2 : bytes := [x64; x65; x76; x6d; x6f; x64; x3a; x6f; x73].
Definition ex_v2 : bytes := [x65; x4c; x69; x6e; x75; x78].                    (* "Linux" *)
(* "devmod:modules" *)
Definition ex_k3 : bytes := [x64; x65; x76; x6d; x6f; x64; x3a; x6d; x6f; x64; x75; x6c; x65; x73].
Definition ex_v3 : bytes := x58 :: x3a :: repeat xaa 58.                        (* 58-byte bstr: 60 bytes *)

Definition ex_m1 : bytes := x6d :: ex_k1 ++ ex_v1.
Definition ex_m2 : bytes := x69 :: ex_k2 ++ ex_v2.
Definition ex_m3 : bytes := x6e :: ex_k3 ++ ex_v3.

Definition ex_st : cstate := mkcs None [ex_m1; ex_m2; ex_m3].

Example ex_parse1 : parse_item ex_m1 = Some (Some (mkcur (x6d :: ex_k1) ex_k1 ex_v1)).
Proof. vm_compute. reflexivity. Qed.
Example ex_parse2 : parse_item ex_m2 = Some (Some (mkcur (x69 :: ex_k2) ex_k2 ex_v2)).
Proof. vm_compute. reflexivity. Qed.
Example ex_parse3 : parse_item ex_m3 = Some (Some (mkcur (x6e :: ex_k3) ex_k3 ex_v3)).
Proof. vm_compute. reflexivity. Qed.

(* well-formedness of a concrete item, by computation *)
Lemma wf_item_intro content :
  match parse_item content with Some (Some c) => key_canon c | _ => content = [] end -> wf_item content.
Proof. unfold wf_item. destruct (parse_item content) as [[c|]|]; eauto. Qed.

Example ex_wf : wf_state ex_st.
Proof.
  split; [discriminate|]. repeat (apply Forall_cons; [apply wf_item_intro; vm_compute; reflexivity|]). apply Forall_nil.
Qed.

Example ex_flat : flat ex_st = [(ex_k1, ex_v1); (ex_k2, ex_v2); (ex_k3, ex_v3)].
Proof. vm_compute. reflexivity. Qed.

Definition ex_sizes : list Z := [20; 9; 64; 64; 64; 64].

(* 20 -> whole first message; 9 -> too small for the second key; 64 -> second message; 64, 64 -> third message in two
   chunks (46 + 14 bytes); 64 -> EOF *)
Example ex_drain :
  drain ex_st ex_sizes =
    ([(ex_k1, ex_v1); (ex_k2, ex_v2); (ex_k3, firstn 46 ex_v3); (ex_k3, skipn 46 ex_v3)], CEOF, mkcs None []).
Proof. vm_compute. reflexivity. Qed.

Example ex_drain_norm :
  norm (fst (fst (drain ex_st ex_sizes))) = [(ex_k1, ex_v1); (ex_k2, ex_v2); (ex_k3, ex_v3)].
Proof. vm_compute. reflexivity. Qed.

(* the general theorem instantiated: what the example computes is what drain_complete predicts *)
Example ex_drain_complete :
  norm (fst (fst (drain ex_st ex_sizes))) = norm (flat ex_st).
Proof. rewrite ex_drain. exact (drain_complete _ _ _ _ _ ex_wf ex_drain eq_refl). Qed.

(* a queue with a yield marker and two consecutive messages of the same key: the yield ends the batch, the equal keys
   are merged by the receiver *)
Definition ex_st2 : cstate := mkcs None [ex_m1; []; x6d :: ex_k1 ++ [xf4]; ex_m2].

Example ex_wf2 : wf_state ex_st2.
Proof.
  split; [discriminate|]. repeat (apply Forall_cons; [apply wf_item_intro; vm_compute; reflexivity|]). apply Forall_nil.
Qed.

Example ex_round2 :
  round ex_st2 1300 = RRound [(ex_k1, ex_v1)] true (mkcs None [x6d :: ex_k1 ++ [xf4]; ex_m2]).
Proof. vm_compute. reflexivity. Qed.

Example ex_drain2 :
  drain ex_st2 [1300; 1283; 1300; 1283; 1271] =
    ([(ex_k1, ex_v1); (ex_k1, [xf4]); (ex_k2, ex_v2)], CEOF, mkcs None []) /\
  norm [(ex_k1, ex_v1); (ex_k1, [xf4]); (ex_k2, ex_v2)] = [(ex_k1, [xf5; xf4]); (ex_k2, ex_v2)].
Proof. split; vm_compute; reflexivity. Qed.

(* A key whose overhead does not fit a whole message of the given size can never be sent: the round fails (the device's
   sending loop returns an error: DESIGN 9.4, D55). *)
Example ex_round_unsendable : round ex_st 10 = RFail.
Proof. vm_compute. reflexivity. Qed.

Print Assumptions read_chunk_fits.
Print Assumptions read_chunk_wf.
Print Assumptions read_chunk_lossless.
Print Assumptions drain_lossless.
Print Assumptions drain_complete.
Print Assumptions round_fits.
Print Assumptions round_total.
Print Assumptions round_fails_only_on_unsendable_key.
Print Assumptions yield_round.

(* the message as a whole: with the 5 bytes exchangeServiceInfo reserves, every TO2.DeviceServiceInfo fits the
   negotiated size, whatever the number of KVs in it (each KV takes at least 3 bytes, so a 16-bit size bounds the count
   below 65536 and the array head at 3 bytes) *)
Lemma batch_size_count kvs : 3 * Z.of_nat (length kvs) <= batch_size kvs.
Proof.
  induction kvs as [|[k v] r IH]; [cbn; lia|].
  rewrite batch_size_cons. cbn [length]. pose proof (kv_size_ge3 k v). lia.
Qed.

Theorem message_fits st mtu kvs more st' :
  wf_state st -> 5 <= mtu < 65536 -> round st (exchange_budget mtu) = RRound kvs more st' ->
  message_size kvs <= mtu.
Proof.
  intros Hw Hm E. unfold exchange_budget in E.
  destruct (round_fits st (mtu - 5) kvs more st' Hw ltac:(lia) E) as [S _].
  fold (batch_size kvs) in S. pose proof (batch_size_count kvs) as C.
  unfold message_size, arr_head.
  destruct (Z.ltb_spec (Z.of_nat (length kvs)) 24); [lia|].
  destruct (Z.ltb_spec (Z.of_nat (length kvs)) 256); [lia|].
  destruct (Z.ltb_spec (Z.of_nat (length kvs)) 65536); lia.
Qed.
Print Assumptions message_fits.

(* the reserve is tight: with only 3 bytes reserved a message of 24 KVs filled to the brim would not fit *)
Example reserve_of_3_is_too_small :
  exists kvs : list (bytes * bytes), batch_size kvs = 147 - 3 /\ 147 < message_size kvs.
Proof.
  exists (repeat ([x00], [x00]) 23 ++ [([x00], repeat x00 24)]). vm_compute. split; [reflexivity|reflexivity].
Qed.
