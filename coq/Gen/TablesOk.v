(* Gen/TablesOk.v — hand-written, stable: connects the regenerated tables (Gen/Tables.v, dumped from the
   compiled packages on every run) to the constants the model and its theorems use.  If go-fdo changes a
   constant, one of these stops compiling and the differing value is the input to replay. *)
From FDO Require Import Gen.Tables Rv.RvImpl.
Local Open Scope N_scope.

Lemma max_len_is_code : max_len = max_array_decode_length.
Proof. reflexivity. Qed.

Lemma max_depth_is_code : N.of_nat max_depth = max_decode_depth.
Proof. reflexivity. Qed.

(* rendezvous variable numbering used by the interpreter model (0 DevOnly .. 15 ExtRV), protocol values 0..6,
   media "all" markers 20/21 *)
Lemma rv_numbering_is_code :
  rv_vars = [0; 1; 2; 3; 4; 5; 6; 7; 8; 9; 10; 11; 12; 13; 14; 15] /\
  rv_protocols = [0; 1; 2; 3; 4; 5; 6] /\ rv_media_all = [20; 21].
Proof. repeat split. Qed.
