(* Props/C12.v — CBOR decoding of arbitrary bytes is total, bounded and exact.
   The decoder model is Cbor/Typed.v ([dec], [unmarshal], [dec_raw]); oracles (X.509 parsing, RFC 3339
   parsing) are universally quantified: the theorems hold whatever they answer. *)
From FDO Require Import Cbor.Typed Cbor.DecFacts Gen.Tables Gen.TablesOk.

(* For every target shape, every byte string, every oracle behaviour: decoding with the fuel the runner
   uses neither panics nor runs out of fuel — it returns a value or an error. *)
Theorem C12_total : forall O_der O_rfc t b, total (dec O_der O_rfc (fuel_for b) 0 t b).
Proof. exact dec_fuel_for_total. Qed.
Print Assumptions C12_total.

Theorem C12_unmarshal_total : forall O_der O_rfc t b, total (unmarshal O_der O_rfc t b).
Proof. exact unmarshal_total. Qed.
Print Assumptions C12_unmarshal_total.

Theorem C12_raw_total : forall d b, total (dec_raw (fuel_for b) d b).
Proof. intros d b. apply dec_raw_total. unfold fuel_for. lia. Qed.
Print Assumptions C12_raw_total.

(* Exactness: a successful decode consumed a non-empty prefix and leaves exactly the rest of the stream. *)
Theorem C12_exact : forall O_der O_rfc f d t b v r,
  dec O_der O_rfc f d t b = Ok (v, r) -> exists p, b = p ++ r /\ p <> [].
Proof. exact dec_exact. Qed.
Print Assumptions C12_exact.

(* Whole-buffer decoding never succeeds with bytes left over. *)
Theorem C12_unmarshal_no_trailing : forall O_der O_rfc t b v,
  unmarshal O_der O_rfc t b = Ok v -> dec O_der O_rfc (fuel_for b) 0 t b = Ok (v, []).
Proof. exact unmarshal_whole. Qed.
Print Assumptions C12_unmarshal_no_trailing.

(* Declared lengths at or above the documented limit are rejected on the head alone: the error does not
   depend on (and the model reads none of) the bytes after the head. *)
Theorem C12_limit : forall O_der O_rfc f d t b h r,
  generic_ty t = true -> read_head b = Ok (h, r) ->
  ((h_mt h = 2 \/ h_mt h = 3 \/ h_mt h = 4) /\ max_len <= arg_val h \/ h_mt h = 5 /\ 50000 <= arg_val h)%N ->
  exists e, dec O_der O_rfc (S f) d t b = Err e.
Proof. eexists. eapply dec_refuses; eauto. tauto. Qed.
Print Assumptions C12_limit.

Theorem C12_limit_wrapped : forall O_der O_rfc f d t b h r,
  (t = TBWBytes \/ exists c, t = TDer c) -> read_head b = Ok (h, r) ->
  (h_mt h = 2 \/ h_mt h = 3)%N -> is_null_hd h = false -> (max_len <= arg_unwrap h)%N ->
  exists e, dec O_der O_rfc (S f) d t b = Err e.
Proof. eexists. eapply dec_refuses_wrapped; eauto. Qed.
Print Assumptions C12_limit_wrapped.

(* Nesting beyond MaxDecodeDepth is rejected (this is what bounds recursion and error-wrapping work). *)
Theorem C12_depth_limit : forall O_der O_rfc f t b h r,
  generic_ty t = true -> read_head b = Ok (h, r) -> (h_mt h = 4 \/ h_mt h = 5)%N ->
  exists e, dec O_der O_rfc (S f) max_depth t b = Err e.
Proof. eexists. eapply dec_refuses; eauto. Qed.
Print Assumptions C12_depth_limit.

(* The limits the theorems speak about are the ones compiled into the library today (regenerated table). *)
Theorem C12_limits_are_the_codes :
  max_len = max_array_decode_length /\ N.of_nat max_depth = max_decode_depth.
Proof. exact (conj max_len_is_code max_depth_is_code). Qed.
Print Assumptions C12_limits_are_the_codes.

(* Non-vacuity: the hypotheses are met by concrete inputs; a deep nest is rejected, an honest item decodes. *)
Example C12_example_ok :
  dec (fun _ _ => true) (fun _ => None) (fuel_for [x82; x01; x41; x05; xff]) 0 TAny [x82; x01; x41; x05; xff]
  = Ok (VList [VInt 1; VBytes [x05]], [xff]).
Proof. vm_compute. reflexivity. Qed.

Example C12_example_limit :
  exists e, dec (fun _ _ => true) (fun _ => None) 9 0 TBytes [x5a; x00; x01; x86; xa0] = Err e.
Proof. vm_compute. eexists; reflexivity. Qed.
