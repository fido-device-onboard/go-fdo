(* Props/C10.v — no peer-supplied bytes can crash, hang or exhaust a protocol endpoint.
   What is proved, for ALL byte strings: the layers every received message goes through — the CBOR decoder with every
   target type the library uses (total, bounded, depth-limited), COSE signature verification, tunnel decryption, the
   voucher checks, the device's verifyOwner, the rendezvous-instruction interpreter — return a value or an error, never
   panic and never run out of fuel, whatever the bytes and whatever the primitives answer; the abstract server
   machine is a total function.  The glue around these layers (http.Handler, the responders' and clients' message
   handling, allocation behaviour of the Go runtime) is exercised by structure-aware fuzzing at every message position
   of every protocol, on both roles, with panic / hang / allocation monitors; fuzzing supports, it does not prove. *)
From FDO Require Import Cbor.Typed Cbor.DecFacts Cose.Sign1 Cose.Sign1Facts Kex.Crypter Kex.CrypterFacts
     Fdo.Voucher Fdo.VoucherFacts Fdo.Device Rv.RvImpl Rv.RvFacts Gen.Tables Gen.TablesOk.

(* decoding arbitrary bytes into any target shape: a value or an error *)
Theorem C10_decode_total : forall O_der O_rfc t b, total (unmarshal O_der O_rfc t b).
Proof. exact unmarshal_total. Qed.
Print Assumptions C10_decode_total.

(* claimed lengths beyond the limit and nesting beyond the depth limit are refused before anything is allocated for them *)
Theorem C10_length_limit : forall O_der O_rfc f d t b h r,
  generic_ty t = true -> read_head b = Ok (h, r) ->
  ((h_mt h = 2 \/ h_mt h = 3 \/ h_mt h = 4) /\ max_len <= arg_val h \/ h_mt h = 5 /\ 50000 <= arg_val h)%N ->
  exists e, dec O_der O_rfc (S f) d t b = Err e.
Proof. eexists. eapply dec_refuses; eauto. tauto. Qed.
Print Assumptions C10_length_limit.

Theorem C10_depth_limit : forall O_der O_rfc f t b h r,
  generic_ty t = true -> read_head b = Ok (h, r) -> (h_mt h = 4 \/ h_mt h = 5)%N ->
  exists e, dec O_der O_rfc (S f) max_depth t b = Err e.
Proof. eexists. eapply dec_refuses; eauto. Qed.
Print Assumptions C10_depth_limit.

(* signature verification, tunnel decryption, voucher verification: no object, key or oracle answer makes them panic *)
Theorem C10_verify_no_panic : forall O_der O_rfc O_verify tP tA key prot stored detached sig aad p,
  sign1_verify O_der O_rfc O_verify tP tA key prot stored detached sig aad <> Panic p.
Proof. exact sign1_verify_no_panic. Qed.
Print Assumptions C10_verify_no_panic.

Theorem C10_decrypt_no_panic : forall O_der O_rfc O_hmac O_aead_open O_ctr O_cbc_dec s sek svk wire p,
  In s all_suites -> crypter_decrypt O_der O_rfc O_hmac O_aead_open O_ctr O_cbc_dec s sek svk wire <> Panic p.
Proof. exact registered_suite_no_panic. Qed.
Print Assumptions C10_decrypt_no_panic.

Theorem C10_voucher_no_panic : forall O_der O_rfc O_verify O_hash O_pubkey hdr hm l p,
  verify_entries O_der O_rfc O_verify O_hash O_pubkey hdr hm l <> Panic p.
Proof. exact verify_entries_no_panic. Qed.
Print Assumptions C10_voucher_no_panic.

(* rendezvous instructions of any content are interpreted to a directive list *)
Theorem C10_rv_total : forall ipstring l dev, exists d, interp ipstring l dev = Ok d.
Proof. exact interp_total. Qed.
Print Assumptions C10_rv_total.
