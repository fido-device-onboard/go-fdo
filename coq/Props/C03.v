(* Props/C03.v — ownership handover leaves device credential and stored voucher in agreement.
   Model: Fdo/Handover.v (what device and owner each compute at the end of DI and of TO2: header, HMAC, credential) on
   top of Fdo/Voucher.v's verification functions; Fdo/Server.v for "the voucher store is touched only when Done is
   accepted".  [agrees secret c hdr hm]: the voucher header hdr with HMAC hm verifies against credential c: header MAC
   under the device secret, manufacturer-key hash, and GUID / rendezvous info / device info / version equal. *)
From FDO Require Import Fdo.Handover Fdo.HandoverFacts Fdo.Server Fdo.ServerFacts.
Local Open Scope Z_scope.

(* after DI (and after TO2): whatever header the device adopts, storing exactly that header with the HMAC the device
   sent yields a voucher that verifies against the credential the device keeps *)
Theorem C03_adopt_agrees : forall O_hash O_hmac secret alg hdr hm c,
  device_adopts O_hash O_hmac secret alg hdr = Ok (hm, c) -> agrees O_hash O_hmac secret c hdr hm.
Proof. exact adopt_agrees. Qed.
Print Assumptions C03_adopt_agrees.

(* TO2 with replacement: device and owner assemble the same header from the voucher the device was shown and the
   session's GUID, rendezvous info and owner key; the result agrees and carries the session's GUID and rendezvous info *)
Theorem C03_replacement_same : forall hdr g r k, device_replacement hdr g r k = owner_replacement hdr g r k.
Proof. exact replacement_same. Qed.
Print Assumptions C03_replacement_same.

Theorem C03_round_agrees : forall O_hash O_hmac secret alg hdr g r k hdr' hm' c',
  owner_replacement hdr g r k = Some hdr' -> device_replacement hdr g r k = Some hdr' ->
  device_adopts O_hash O_hmac secret alg hdr' = Ok (hm', c') ->
  agrees O_hash O_hmac secret c' hdr' hm' /\ c_guid c' = g /\ c_rvinfo c' = r.
Proof. exact round_agrees. Qed.
Print Assumptions C03_round_agrees.

(* any number of rounds of (reuse | replace): agreement is an invariant, the device-certificate hash never changes *)
Theorem C03_rounds_agree : forall O_hash O_hmac secret c hdr hm c' hdr' hm',
  agrees O_hash O_hmac secret c hdr hm -> rounds O_hash O_hmac secret c hdr hm c' hdr' hm' -> agrees O_hash O_hmac secret c' hdr' hm'.
Proof. exact rounds_agree. Qed.
Print Assumptions C03_rounds_agree.

Theorem C03_rounds_keep_cert_hash : forall O_hash O_hmac secret c hdr hm c' hdr' hm' cch,
  rounds O_hash O_hmac secret c hdr hm c' hdr' hm' -> header_cch_of hdr = Some cch -> header_cch_of hdr' = Some cch.
Proof. exact rounds_keep_cch. Qed.
Print Assumptions C03_rounds_keep_cert_hash.

(* a TO2 that fails before the owner accepted Done leaves the voucher store untouched: the store is written only in the
   step that answers 71 to an in-tunnel Done passing every check (server machine, any history) *)
Theorem C03_store_touched_only_at_done : forall st h r st' t eff,
  reach st h -> handle st r = (st', RType t, eff) -> In EReplace eff ->
  exists id, r_tok r = TSess id /\ r_type r = 70%N /\ r_ok r = true /\ r_enc r = true /\
    started_by h id PTO2 /\ proved_by h id /\ hmac_by h id.
Proof. exact replace_chain_partial. Qed.
Print Assumptions C03_store_touched_only_at_done.
