(* Props/C16.v — TO2 service info is delivered exactly once, in order, until modules finish.
   Models: Svi/Devmod.v (the device cuts its module list into devmod:modules chunks fitting the MTU; the owner puts
   them together), Svi/Modules.v (the owner walks through devmod and its modules, one ProduceInfo per
   DeviceServiceInfo without IsMoreServiceInfo, IsDone with the last completion), Svi/Chunk.v (a module's message
   bytes are cut into key/value entries and batched into protocol messages: C15).  Module activation on the device
   and the concurrency of its pipes are exercised on the implementation (scripted modules through real TO2 runs). *)
From FDO Require Import Svi.Devmod Svi.DevmodFacts Svi.Modules Svi.ModulesFacts Svi.Chunk Svi.ChunkFacts.

(* the owner obtains exactly the device's module list, whatever the MTU cuts it into and however many names there are *)
Theorem C16_module_list_roundtrip : forall fits names cs,
  (forall x, In x names -> x <> []) -> Devmod.split fits names = Some cs ->
  collect (repeat [] (length names)) cs = Some names /\ concat (map snd cs) = names.
Proof. exact devmod_roundtrip. Qed.
Print Assumptions C16_module_list_roundtrip.

(* the cutting always succeeds when every single name fits on its own, and every chunk it sends fits *)
Theorem C16_module_list_total : forall fits names,
  (forall st m, In m names -> fits st [m] = true) -> Devmod.split fits names <> None.
Proof. exact devmod_split_total. Qed.
Print Assumptions C16_module_list_total.

Theorem C16_module_list_chunks_fit : forall fits fuel start cur rest cs,
  (cur = [] \/ fits start cur = true) -> split_go fits fuel start cur rest = Some cs ->
  Forall (fun c => snd c = [] \/ fits (fst c) (snd c) = true) cs.
Proof. intros fits fuel start cur rest cs INV S. now apply (split_go_spec fits fuel start cur rest cs S). Qed.
Print Assumptions C16_module_list_chunks_fit.

(* owner modules run one after another to completion: for every plan (calls each module needs) and every pattern of
   IsMoreServiceInfo flags from the device, the modules that produce form, in order, a prefix of
   devmod^k0, module1^k1, module2^k2, ... *)
Theorem C16_modules_in_order : forall flags s,
  exists n, produced (snd (orun s flags)) = firstn n (ideal (o_done s) (o_rest s)).
Proof. exact produced_is_prefix. Qed.
Print Assumptions C16_modules_in_order.

(* IsDone goes out at most once, and exactly in the reply in which the last module reports completion *)
Theorem C16_done_at_most_once : forall flags s, dones (snd (orun s flags)) <= 1.
Proof. exact done_at_most_once. Qed.
Print Assumptions C16_done_at_most_once.

Theorem C16_done_exactly_when_all_completed : forall flags s, o_rest s <> [] ->
  dones (snd (orun s flags)) = (if ModulesFacts.total (o_rest s) <=? ModulesFacts.produce_rounds flags then 1 else 0).
Proof. exact done_iff_all_completed. Qed.
Print Assumptions C16_done_exactly_when_all_completed.

(* the bytes a module writes reach the peer complete, in order, exactly once, over any number of protocol messages
   and any sizes the reader is offered (C15's lossless theorem on the chunking pipeline) *)
Theorem C16_message_bytes_lossless : forall st sizes emitted last st',
  wf_state st -> drain st sizes = (emitted, last, st') ->
  last <> CErr /\ norm (emitted ++ flat st') = norm (flat st).
Proof. exact drain_lossless. Qed.
Print Assumptions C16_message_bytes_lossless.

Example C16_sequence_example :
  snd (orun (start [1; 2; 1]) [false; true; false; false; false; false]) =
  [OProduced 0 false; ONothing; OProduced 1 false; OProduced 1 false; OProduced 2 true; OError].
Proof. vm_compute. reflexivity. Qed.
