(* Props/C11.v — CBOR encoding is canonical and decode/encode are mutual inverses.
   Model: Cbor/Typed.v ([enc], [dec], [unmarshal]).  [wf] (Cbor/RoundTripWf.v) describes the values the Go types can
   hold and round-trip; every clause of it is necessary — Cbor/RoundTrip.v exhibits a value violating each clause
   that does not round-trip (the cx_ examples).  [wfb] is its executable checker. *)
From FDO Require Import Cbor.Typed Cbor.DecFacts Cbor.RoundTripMono Cbor.RoundTripHead Cbor.RoundTripWf
     Cbor.RoundTripCheck Cbor.RoundTrip Cbor.RoundTripSuff Cbor.Canon Run.Sexp Gen.Types.
From Coq Require Import Sorting.Sorted Sorting.Permutation.

(* decode(encode(v)) = v: for every target shape, every well-formed value, every continuation of the stream,
   with the fuel the runner uses; the decoder stops exactly at the end of the item *)
Theorem C11_dec_enc : forall O_der O_rfc fe t v b, wf O_der 0 t v -> enc fe t v = Ok b ->
  forall r, dec O_der O_rfc (fuel_for (b ++ r)) 0 t (b ++ r) = Ok (v, r).
Proof. exact dec_enc_fuel_for. Qed.
Print Assumptions C11_dec_enc.

Theorem C11_unmarshal_enc : forall O_der O_rfc fe t v b, wf O_der 0 t v -> enc fe t v = Ok b ->
  unmarshal O_der O_rfc t b = Ok v.
Proof. exact unmarshal_enc. Qed.
Print Assumptions C11_unmarshal_enc.

(* at any nesting depth and for any large enough fuel *)
Theorem C11_dec_enc_any_depth : forall O_der O_rfc fe d t v b, wf O_der d t v -> enc fe t v = Ok b ->
  forall r, exists f0, forall f, (f0 <= f)%nat -> dec O_der O_rfc f d t (b ++ r) = Ok (v, r).
Proof. exact dec_enc. Qed.
Print Assumptions C11_dec_enc_any_depth.

(* encoding is a function (deterministic, independent of the fuel) and injective on well-formed values: hashes, MACs
   and signatures computed over re-encoded structures identify the structure *)
Theorem C11_deterministic : forall f f' t v b b', enc f t v = Ok b -> enc f' t v = Ok b' -> b = b'.
Proof. exact enc_det. Qed.
Print Assumptions C11_deterministic.

Theorem C11_injective : forall O_der d t v1 v2 fe fe' b, wf O_der d t v1 -> wf O_der d t v2 ->
  enc fe t v1 = Ok b -> enc fe' t v2 = Ok b -> v1 = v2.
Proof. exact enc_injective. Qed.
Print Assumptions C11_injective.

(* hence re-encoding what was decoded from an encoding reproduces it byte for byte (storage / transmission stability) *)
Theorem C11_stable : forall O_der O_rfc fe fe' t v b v' b', wf O_der 0 t v -> enc fe t v = Ok b ->
  unmarshal O_der O_rfc t b = Ok v' -> enc fe' t v' = Ok b' -> b' = b.
Proof.
  intros O_der O_rfc fe fe' t v b v' b' W E U E'.
  rewrite (unmarshal_enc O_der O_rfc fe t v b W E) in U. inversion U; subst. exact (enc_det _ _ _ _ _ _ E' E).
Qed.
Print Assumptions C11_stable.

(* canonical form: every item head the encoder writes has the preferred (shortest) length ... *)
Theorem C11_heads_shortest : forall mt n, length (head mt n) = S (preferred_extra n).
Proof. exact head_length_preferred. Qed.
Print Assumptions C11_heads_shortest.

(* ... and map entries are emitted in bytewise order of their encoded keys, none lost or added *)
Theorem C11_map_keys_sorted : forall l, Sorted key_le (kv_sort l) /\ Permutation l (kv_sort l).
Proof. split; [apply kv_sort_sorted|apply kv_sort_perm]. Qed.
Print Assumptions C11_map_keys_sorted.

(* the executable checker is sound, so the harness can test membership in wf *)
Theorem C11_wfb_sound : forall O_der n d t v, wfb O_der n d t v = true -> wf O_der d t v.
Proof. exact wfb_sound. Qed.
Print Assumptions C11_wfb_sound.

(* Every wire / storage type of the library (regenerated by reflection, Gen/Types.v) is regular for the codec:
   at most one omitempty field per struct and only on byte/text/int/bool/slice/map/pointer fields, no pointer to
   pointer, fixed arrays below the length limit — the type-level premises under which wf's struct clause (S6a) holds
   for every value (RoundTripSuff.one_om_select). *)
Fixpoint ty_regular (t : ty) : bool :=
  match t with
  | TStruct fs =>
    Nat.leb (length (filter fst fs)) 1 &&
    forallb (fun f => ty_regular (snd f) &&
                      (negb (fst f) || match snd f with TInt _ | TBool | TBytes | TText | TSlice _ | TMap _ _ | TPtr _ => true | _ => false end)) fs
  | TPtr (TPtr _) => false
  | TPtr t' | TSlice t' | TTag t' | TTagged _ t' | TBstr t' => ty_regular t'
  | TMap k v => ty_regular k && ty_regular v
  | TFixed n => (N.of_nat n <? 100000)%N
  | _ => true
  end.

Definition wire_type_names : list bstr := map fst all_types.
Definition irregular_types : list bstr :=
  map fst (filter (fun nt => negb (ty_regular (snd nt))) all_types).

(* the only irregular entries are the harness's own synthetic stress shapes with several omitempty fields *)
Theorem C11_wire_types_regular :
  irregular_types = ["SOmit2"%bs; "SOmit3"%bs].
Proof. vm_compute. reflexivity. Qed.
Print Assumptions C11_wire_types_regular.

(* non-vacuity: concrete non-trivial values are well formed and round-trip (struct with an omitted field, nested
   any-map, nil and non-nil pointers, bstr-wrapped struct, int64 minimum, 128 nested arrays, ...): the Examples
   ex_... of Cbor/RoundTrip.v, re-exported here *)
Example C11_example_struct_omit : Examples.round_trips Examples.st1 (VList [VInt 5; VText []; VBool true]).
Proof. exact Examples.ex_struct_omit. Qed.
Example C11_example_int64_min : Examples.round_trips (TInt KI64) (VInt (-9223372036854775808)).
Proof. exact Examples.ex_int64_min. Qed.
