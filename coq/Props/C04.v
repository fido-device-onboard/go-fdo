(* Props/C04.v — ownership vouchers verify iff untampered.
   Model: Fdo/Voucher.v (mirror of Voucher.VerifyHeader / VerifyManufacturerKey / VerifyCertChainHash / VerifyEntries /
   validateNextEntry / OwnerPublicKey over the CBOR codec model and the COSE Sign1 model; the voucher layout is the
   descriptor reflected from fdo.Voucher in Gen/Types.v).  Hashes, HMAC, signature verification and public-key parsing
   are universally quantified oracles: "some step fails" is proved up to what the primitives guarantee, i.e. every
   accepted alteration is shown to need an equal hash of different encodings or an accepting signature oracle.
   ExtendVoucher is exercised on the implementation only (correspondence monitors), not modelled. *)
From FDO Require Import Fdo.VoucherFacts Fdo.Extend Fdo.ExtendFacts Gen.Types.

(* the layouts the model decodes with are the ones the compiled package reports *)
Theorem C04_layout : ty_voucher = ty_fdo_Voucher /\ ty_entry = ty_fdo_VoucherEntry /\ ty_header = ty_fdo_VoucherHeader.
Proof. repeat split. Qed.
Print Assumptions C04_layout.

(* acceptance of a chain of any length means: the manufacturer key parses; every entry carries a payload, is signed by
   the key named by its predecessor (the manufacturer key for entry 0), repeats the hash algorithm of entry 0, carries
   the hash of GUID||DeviceInfo and the hash of the complete encoding of its predecessor (header||HMAC for entry 0) *)
Theorem C04_chain : forall O_der O_rfc O_verify O_hash O_pubkey hdr hm e0 rest,
  verify_entries O_der O_rfc O_verify O_hash O_pubkey hdr hm (e0 :: rest) = Ok tt ->
  exists mk mfg alg h info hb mb,
    header_mfg_key hdr = Some mk /\ O_pubkey mk = Some mfg /\ hash_of_alg alg = Some h /\
    header_info hdr = Some info /\ enc enc_fuel ty_header hdr = Ok hb /\ enc enc_fuel ty_hash hm = Ok mb /\
    Forall (fun en => e_payload en <> None) (e0 :: rest) /\
    chain_ok O_der O_rfc O_verify O_hash O_pubkey alg h (O_hash h info) mfg (O_hash h (hb ++ mb)) (e0 :: rest).
Proof. exact verify_entries_chain. Qed.
Print Assumptions C04_chain.

(* any position of any chain: replacing a non-final entry (payload, protected or unprotected header, signature; hence
   also swapping, duplicating or splicing entries) keeps the voucher valid only if two entry encodings hash equal *)
Theorem C04_entry_bound : forall O_der O_rfc O_verify O_hash O_pubkey l1 k alg h ph ih en en' e2 rest,
  validate O_der O_rfc O_verify O_hash O_pubkey k alg h ph ih (l1 ++ en :: e2 :: rest) = Ok tt ->
  validate O_der O_rfc O_verify O_hash O_pubkey k alg h ph ih (l1 ++ en' :: e2 :: rest) = Ok tt ->
  exists hv, entry_hash O_hash h en = Ok hv /\ entry_hash O_hash h en' = Ok hv.
Proof. exact alter_nonlast_needs_collision. Qed.
Print Assumptions C04_entry_bound.

(* header, header HMAC and device info are bound by entry 0 *)
Theorem C04_header_bound : forall O_der O_rfc O_verify O_hash O_pubkey hdr hm hdr' hm' e0 rest,
  verify_entries O_der O_rfc O_verify O_hash O_pubkey hdr hm (e0 :: rest) = Ok tt ->
  verify_entries O_der O_rfc O_verify O_hash O_pubkey hdr' hm' (e0 :: rest) = Ok tt ->
  exists h hb mb hb' mb' info info',
    enc enc_fuel ty_header hdr = Ok hb /\ enc enc_fuel ty_hash hm = Ok mb /\
    enc enc_fuel ty_header hdr' = Ok hb' /\ enc enc_fuel ty_hash hm' = Ok mb' /\
    header_info hdr = Some info /\ header_info hdr' = Some info' /\
    O_hash h (hb ++ mb) = O_hash h (hb' ++ mb') /\ O_hash h info = O_hash h info'.
Proof. exact alter_header_needs_collision. Qed.
Print Assumptions C04_header_bound.

(* the owner reported is the key named by the last entry *)
Theorem C04_owner_is_last : forall O_pubkey hdr l en, owner_key O_pubkey hdr (l ++ [en]) = entry_key O_pubkey en.
Proof. exact owner_key_last. Qed.
Print Assumptions C04_owner_is_last.

(* whatever the voucher and whatever the primitives answer, verification fails or passes: it never panics *)
Theorem C04_no_panic : forall O_der O_rfc O_verify O_hash O_pubkey hdr hm l p,
  verify_entries O_der O_rfc O_verify O_hash O_pubkey hdr hm l <> Panic p.
Proof. exact verify_entries_no_panic. Qed.
Print Assumptions C04_no_panic.

(* only the current owner can extend: ExtendVoucher's guard (model: extend_guard; compared with the library on every
   signer role x next key x chain length, kind voucher.extendcase) passes only for a signer whose key IS the key the
   voucher currently ends in, and only among keys of one kind and size *)
Theorem C04_extend_only_owner : forall O_pubkey mfg signer next signer_key hdr es,
  extend_guard O_pubkey mfg signer next signer_key hdr es = true ->
  owner_key O_pubkey hdr es = Ok signer_key /\ mfg = signer /\ signer = next /\ signer <> KOtherKey.
Proof. exact extend_guard_owner. Qed.
Print Assumptions C04_extend_only_owner.

(* "verify iff untampered", the other direction for extension: a voucher whose entries verify, extended by an entry
   whose payload is the one ExtendVoucher builds and whose signature verifies under the current owner key, verifies
   again, for chains of any length (the first extension, by the manufacturer, included) *)
Theorem C04_extension_verifies : forall O_der O_rfc O_verify O_hash O_pubkey hdr hm es alg extra next_pk pl prot unprot sig k,
  verify_entries O_der O_rfc O_verify O_hash O_pubkey hdr hm es = Ok tt ->
  owner_key O_pubkey hdr es = Ok k ->
  match es with
  | [] => True
  | e0 :: _ => exists pl0 pv hh pk, e_payload e0 = Some pl0 /\ payload_fields pl0 = Some (alg, pv, hh, pk)
  end ->
  extend_payload O_hash alg hdr hm es extra next_pk = Ok pl ->
  sign1_verify O_der O_rfc O_verify ty_entry_payload TBytes k prot (Some pl) None sig (VBytes []) = Ok true ->
  verify_entries O_der O_rfc O_verify O_hash O_pubkey hdr hm (extend_with es prot unprot pl sig) = Ok tt.
Proof. exact extend_verifies. Qed.
Print Assumptions C04_extension_verifies.

(* and its owner is the key named in the new entry *)
Theorem C04_extension_owner : forall O_pubkey hdr es prot unprot sig alg ph ih extra next_pk,
  owner_key O_pubkey hdr
    (extend_with es prot unprot (VList [VList [VInt alg; VBytes ph]; VList [VInt alg; VBytes ih]; extra; next_pk]) sig) =
  match O_pubkey next_pk with Some nk => Ok nk | None => Err EOther end.
Proof. exact extend_owner. Qed.
Print Assumptions C04_extension_owner.
