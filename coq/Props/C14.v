(* Props/C14.v — Key exchange yields equal, fresh, correctly derived keys; survives persistence.
   Model: Kex/Kdf.v (mirror of internal/nistkdf.KDF, kex/dh.go, the ECDH parameter codec).  HMAC (the PRF) and
   big.Int.Exp are parameters; what is assumed of them is written in each statement. *)
From FDO Require Import Kex.Kdf Kex.KdfFacts Kex.Crypter Kex.CrypterFacts.

(* The derivation loop (which iterates L/h times with h in BYTES, i.e. up to 8x more often than needed, and
   truncates) equals SP 800-108 counter mode: leftmost L bits of K(1)||...||K(ceil(L/h)), K(i) = PRF(kIn,
   [i]8 || "FIDO-KDF" || 0x00 || "AutomaticOnboardTunnel" || context || [L]16), whenever it does not hit the
   8-bit counter guard. *)
Theorem C14_kdf_spec : forall prf hbytes, (forall k m, length (prf k m) = hbytes) -> (0 < hbytes)%nat ->
  forall kin ctx L, (kdf_iterations hbytes L <= 255)%N -> kdf prf hbytes kin ctx L = Ok (kdf_spec prf hbytes kin ctx L).
Proof. exact kdf_refines_spec. Qed.
Print Assumptions C14_kdf_spec.

Theorem C14_kdf_length : forall prf hbytes, (forall k m, length (prf k m) = hbytes) -> (0 < hbytes)%nat ->
  forall kin ctx L k, kdf prf hbytes kin ctx L = Ok k -> length k = N.to_nat (L / 8).
Proof. exact kdf_length. Qed.
Print Assumptions C14_kdf_length.

(* Diffie-Hellman: whenever both sides complete, they hold the same SEK and SVK, for every group, generator,
   exponents and cipher sizes — given only that Exp is modular exponentiation. *)
Theorem C14_dh_agree : forall modexp prf hbytes, (forall b e m, modexp b e m = ((b ^ e) mod m)%N) ->
  forall g p plen a b ss vs xB kd ko, (0 < p)%N ->
  dh_device_param modexp prf hbytes g p plen (dh_owner_param modexp g p a) b ss vs = Ok (xB, kd) ->
  dh_owner_set modexp prf hbytes p plen (Some a) xB ss vs = Ok ko -> kd = ko.
Proof. exact dh_agree. Qed.
Print Assumptions C14_dh_agree.

Theorem C14_dh_key_lengths : forall modexp prf hbytes other own p plen ss vs sek svk,
  (forall k m, length (prf k m) = hbytes) -> (0 < hbytes)%nat ->
  dh_symmetric_key modexp prf hbytes other own p plen ss vs = Ok (sek, svk) -> length sek = ss /\ length svk = vs.
Proof. exact dh_key_lengths. Qed.
Print Assumptions C14_dh_key_lengths.

(* degenerate peer values are rejected instead of producing a key; a replayed parameter is an error *)
Theorem C14_dh_reject : forall modexp prf hbytes p plen own other ss vs,
  (4 <= p)%N -> (other = 0 \/ other = 1 \/ other = p - 1 \/ other = p \/ other = p + 1)%N ->
  exists e, dh_symmetric_key modexp prf hbytes other own p plen ss vs = Err e.
Proof. exact dh_reject. Qed.
Print Assumptions C14_dh_reject.

Theorem C14_dh_second_set : forall modexp prf hbytes p plen xB ss vs,
  dh_owner_set modexp prf hbytes p plen None xB ss vs = Err EOther.
Proof. exact dh_second_set. Qed.
Print Assumptions C14_dh_second_set.

(* ECDH parameters: a length-prefixed field is read back exactly (all lengths below 2^16) *)
Theorem C14_ecdh_field : forall a r, (N.of_nat (length a) < 65536)%N ->
  take16 (be 2 (N.of_nat (length a)) ++ a ++ r) = Ok (a, r).
Proof. exact take16_be. Qed.
Print Assumptions C14_ecdh_field.

(* key sizes per cipher suite come from the regenerated tables: SEK = encryption key size, SVK = MAC key size *)
Theorem C14_suite_key_sizes :
  map (fun s => (enc_alg_info (s_enc s), Cose.Sign1.mac_alg_hash (s_mac s))) all_suites =
  [(Some (true, 16%nat), None); (Some (true, 24%nat), None); (Some (true, 32%nat), None);
   (Some (false, 16%nat), Some (256%N, 16%nat)); (Some (false, 16%nat), Some (256%N, 16%nat));
   (Some (false, 32%nat), Some (384%N, 32%nat)); (Some (false, 32%nat), Some (384%N, 32%nat))].
Proof. vm_compute. reflexivity. Qed.
Print Assumptions C14_suite_key_sizes.

(* non-vacuity: a toy group run with an identity "PRF" completes on both sides with equal keys *)
Example C14_example :
  let modexp := fun b e m => ((b ^ e) mod m)%N in
  let prf := fun (k m : bytes) => firstn 4 (k ++ m) in
  exists xB k, dh_device_param modexp prf 4 5 23 1 (dh_owner_param modexp 5 23 6) 15 2 1 = Ok (xB, k) /\
               dh_owner_set modexp prf 4 23 1 (Some 6%N) xB 2 1 = Ok k.
Proof. vm_compute. do 2 eexists. split; reflexivity. Qed.
