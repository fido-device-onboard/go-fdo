(* Props/C05.v — TO2 messages after ProveDevice are confidential and tamper-evident.
   Model: Kex/Crypter.v (mirror of kex.SessionCrypter.Encrypt/Decrypt, cose.Encrypt0, the AES-GCM/CTR/CBC crypters and
   cose.Mac0 on top of the CBOR codec model).  AES and HMAC are universally quantified oracles; secrecy and
   unforgeability of the primitives are not claimed.  Suite and algorithm registries: Gen/Tables.v. *)
From FDO Require Import Kex.Crypter Kex.CrypterFacts Gen.Tables.

(* What acceptance means.  AEAD suites accept only a COSE_Encrypt0 (tag 16); encrypt-then-MAC suites accept only a
   COSE_Mac0 (tag 17) whose tag equals the HMAC, under SVK, of the MAC_structure of the re-encoded inner COSE_Encrypt0
   (so ciphertext, IV and headers are all covered), and only then decrypt. *)
Theorem C05_authentic : forall O_der O_rfc O_hmac O_aead_open O_ctr O_cbc_dec s sek svk wire pt,
  crypter_decrypt O_der O_rfc O_hmac O_aead_open O_ctr O_cbc_dec s sek svk wire = Ok pt ->
  exists n raw rest, dec O_der O_rfc (fuel_for wire) 0 (TTag TRaw) wire = Ok (VTag n (VRaw raw), rest) /\
  ((s_mac s = 0%Z /\ n = 16%N /\
    exists prot unprot ctv, unmarshal O_der O_rfc ty_encrypt0 raw = Ok (VList [VMap prot; VMap unprot; ctv]) /\
      encrypt0_decrypt O_der O_rfc O_aead_open O_ctr O_cbc_dec (s_enc s) sek prot unprot
                       (match ctv with VBytes c => Some c | _ => None end) = Ok pt) \/
   (s_mac s <> 0%Z /\ n = 17%N /\
    exists mprot u value prot unprot ctv prot',
      unmarshal O_der O_rfc ty_mac0_enc0 raw = Ok (VList [VMap mprot; u; VList [VMap prot; VMap unprot; ctv]; VBytes value]) /\
      mac0_digest O_hmac ty_encrypt0 TBytes (s_mac s) svk mprot (VList [VMap prot; VMap unprot; ctv]) (VBytes []) = Ok (prot', value) /\
      encrypt0_decrypt O_der O_rfc O_aead_open O_ctr O_cbc_dec (s_enc s) sek prot unprot
                       (match ctv with VBytes c => Some c | _ => None end) = Ok pt)).
Proof. intros *. apply crypter_decrypt_authentic. Qed.
Print Assumptions C05_authentic.

(* The inner COSE_Encrypt0: algorithm header pinned to the suite's algorithm (protected for AEAD), key of the
   algorithm's size, IV of the cipher's size, AEAD opened over the Enc_structure of the protected header. *)
Theorem C05_encrypt0_authentic : forall O_der O_rfc O_aead_open O_ctr O_cbc_dec alg key prot unprot ct x,
  encrypt0_decrypt O_der O_rfc O_aead_open O_ctr O_cbc_dec alg key prot unprot ct = Ok x ->
  exists ad ksz c iv p,
    enc_alg_info alg = Some (ad, ksz) /\ length key = ksz /\
    parse_hdr O_der O_rfc (TInt KI64) 1 (if ad then prot else unprot) = Ok (Some (VInt alg)) /\
    ct = Some c /\ parse_hdr O_der O_rfc TBytes 5 unprot = Ok (Some (VBytes iv)) /\
    unmarshal O_der O_rfc TRaw p = Ok (VRaw x) /\
    match enc_alg_mode alg with
    | MGcm => length iv = 12%nat /\ exists aad, (if ad then enc_structure prot else Ok []) = Ok aad /\ O_aead_open key iv aad c = Some p
    | MCtr => length iv = 16%nat /\ p = O_ctr key iv c
    | MCbc => length iv = 16%nat /\ length c <> 0%nat /\ Nat.modulo (length c) 16 = 0%nat /\
              let q := O_cbc_dec key iv c in
              (1 <= last_byte q <= 16)%N /\ p = firstn (length q - N.to_nat (last_byte q)) q
    | MUnimplemented => False
    end.
Proof. exact encrypt0_decrypt_authentic. Qed.
Print Assumptions C05_encrypt0_authentic.

(* No wire message, key or oracle behaviour makes decryption panic, for every registered cipher suite. *)
Theorem C05_no_panic : forall O_der O_rfc O_hmac O_aead_open O_ctr O_cbc_dec s sek svk wire p,
  In s all_suites -> crypter_decrypt O_der O_rfc O_hmac O_aead_open O_ctr O_cbc_dec s sek svk wire <> Panic p.
Proof. exact registered_suite_no_panic. Qed.
Print Assumptions C05_no_panic.

(* The suite table is the library's: 3 AEAD suites without MAC, 4 AES-CTR/CBC suites with HMAC-256/384. *)
Theorem C05_suites :
  map (fun r => fst r) cipher_suite_table = [1; 2; 3; -17760703; -17760704; -17760705; -17760706]%Z /\
  forallb (fun s => match enc_alg_mode (s_enc s) with MGcm => (s_mac s =? 0)%Z | MCtr | MCbc => negb (s_mac s =? 0)%Z | _ => false end)
          all_suites = true.
Proof. vm_compute. split; reflexivity. Qed.
Print Assumptions C05_suites.

(* ---- protocol level (Fdo/Server.v): messages 66..71 exist only inside the tunnel, and a message that fails to
   decrypt ends the session ---- *)
From FDO Require Fdo.ServerFacts.

Theorem C05_only_inside_tunnel : forall st h r st' t eff,
  ServerFacts.reach st h -> Server.handle st r = (st', Server.RType t, eff) ->
  (t = 67 \/ t = 69 \/ t = 71 \/ In Server.EModule eff \/ In Server.EReplace eff)%N ->
  exists id, Server.r_tok r = Server.TSess id /\ Server.r_enc r = true /\ ServerFacts.proved_by h id.
Proof. exact ServerFacts.to2_tunnel_gate. Qed.
Print Assumptions C05_only_inside_tunnel.

Theorem C05_failed_message_ends_session : forall st r st' t eff id s,
  Server.handle st r = (st', Server.RType t, eff) -> Server.lookup st (Server.r_tok r) = Some (id, s) ->
  Server.is_start (Server.r_type r) = false ->
  (t = 255%N /\ Server.proto_of (Server.r_type r) <> Server.PNone) \/ Server.is_final t = true ->
  Server.lookup st' (Server.TSess id) = None.
Proof. exact ServerFacts.dead_after_final_or_error. Qed.
Print Assumptions C05_failed_message_ends_session.
