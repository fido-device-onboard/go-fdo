(* Props/C02.v — the owner serves only a peer that proved the device key for this session.
   Model: Fdo/Server.v.  The fact [r_ok] of a ProveDevice (64) request stands for: the token's signature verifies under
   the public key of the voucher's device certificate (COSE model, C13), its nonce is the one issued in this session,
   its UEID names the voucher's GUID, and the key-exchange parameter is well formed; the harness constructs requests
   with and without each of these and reports the fact accordingly. *)
From FDO Require Import Fdo.Server Fdo.ServerFacts Fdo.Owner Fdo.OwnerFacts Fdo.OwnerHonest.
Local Open Scope N_scope.

(* SetupDevice (65) answers only a ProveDevice that passes every check, in a TO2 session opened by an accepted 60 *)
Theorem C02_setup_gate : forall st h r st' eff,
  reach st h -> handle st r = (st', RType 65, eff) ->
  r_type r = 64 /\ r_ok r = true /\ exists id, r_tok r = TSess id /\ started_by h id PTO2.
Proof. exact to2_setup_gate. Qed.
Print Assumptions C02_setup_gate.

(* 67 / 69 / 71, module invocation and voucher replacement: only inside the tunnel of a session that proved the device *)
Theorem C02_tunnel_gate : forall st h r st' t eff,
  reach st h -> handle st r = (st', RType t, eff) ->
  (t = 67 \/ t = 69 \/ t = 71 \/ In EModule eff \/ In EReplace eff) ->
  exists id, r_tok r = TSess id /\ r_enc r = true /\ proved_by h id.
Proof. exact to2_tunnel_gate. Qed.
Print Assumptions C02_tunnel_gate.

(* whatever is sent and in whatever order, over any number of sessions: without a ProveDevice passing every check the
   peer sees only 61 / 63 (served to anyone naming the GUID), errors and empty replies, and nothing happens *)
Theorem C02_no_proof_no_service : forall st h,
  reach st h ->
  (forall n r resp e, In (n, r, resp, e) h -> r_type r = 64 -> r_ok r = false) ->
  forall x, In x h -> ~ served_beyond_header x.
Proof. exact no_proof_no_service. Qed.
Print Assumptions C02_no_proof_no_service.

(* the tunnel keys exist only after an accepted ProveDevice, which needs the accepted HelloDevice of the same session *)
Theorem C02_proved_started : forall st h, reach st h ->
  forall id s, nth_error st id = Some s -> s_proved s = true -> s_started s = true.
Proof. exact proved_started. Qed.
Print Assumptions C02_proved_started.

Theorem C02_histories : forall rs st h, reach st h -> reach (fst (run_from st h rs)) (snd (run_from st h rs)).
Proof. exact run_reach. Qed.
Print Assumptions C02_histories.

(* what [r_ok] of a 64 means in bytes: the body the owner accepted is a COSE_Sign1 signed under the key of the voucher's
   device certificate, over a claims map whose nonce claim is the ProveDevice nonce of THIS session, whose UEID names the
   session's GUID, and whose FDO claim is one key-exchange parameter that the session's key exchange accepted
   (correspondence: kind srv.proof, the bytes on the wire against the responder's answer) *)
Theorem C02_proof_bytes : forall O_der O_rfc O_verify devkey guid nonce xb_ok body,
  prove_device_ok O_der O_rfc O_verify devkey guid nonce xb_ok body = true ->
  exists prot unprot pl sig eat xb,
    open_token O_der O_rfc body = Some (prot, unprot, pl, sig, eat) /\
    sign1_verify O_der O_rfc O_verify TRaw TBytes devkey prot (Some (VRaw pl)) None sig (VBytes []) = Ok true /\
    claim 10 eat = Some (VBytes nonce) /\ claim 256 eat = Some (VBytes (byte_of_N 1 :: guid)) /\
    claim (-257) eat = Some (VList [VBytes xb]) /\ xb_ok xb = true.
Proof. exact prove_device_sound. Qed.
Print Assumptions C02_proof_bytes.

(* conversely the owner demands nothing else of the token (besides a SetupDevice nonce in the unprotected header) *)
Theorem C02_proof_bytes_complete : forall O_der O_rfc O_verify devkey guid nonce xb_ok body prot unprot pl sig eat xb sn,
  open_token O_der O_rfc body = Some (prot, unprot, pl, sig, eat) ->
  Crypter.parse_hdr O_der O_rfc (TFixed 16) (-259)%Z unprot = Ok (Some sn) ->
  sign1_verify O_der O_rfc O_verify TRaw TBytes devkey prot (Some (VRaw pl)) None sig (VBytes []) = Ok true ->
  claim 10 eat = Some (VBytes nonce) -> claim 256 eat = Some (VBytes (byte_of_N 1 :: guid)) ->
  claim (-257) eat = Some (VList [VBytes xb]) -> xb_ok xb = true ->
  prove_device_ok O_der O_rfc O_verify devkey guid nonce xb_ok body = true.
Proof. exact prove_device_complete. Qed.
Print Assumptions C02_proof_bytes_complete.

(* the honest device is never refused: its well-formed token, ENCODED, passes (codec round trip + completeness) *)
Theorem C02_honest_accepted : forall O_der O_rfc O_verify devkey guid nonce xb_ok fe fe' prot unprot pl sig eat body xb sn,
  RoundTripWf.wf O_der 0 ty_token (VList [VMap prot; VMap unprot; VRaw pl; VBytes sig]) ->
  enc fe ty_token (VList [VMap prot; VMap unprot; VRaw pl; VBytes sig]) = Ok body ->
  RoundTripWf.wf O_der 0 ty_eat (VMap eat) -> enc fe' ty_eat (VMap eat) = Ok pl ->
  Crypter.parse_hdr O_der O_rfc (TFixed 16) (-259)%Z unprot = Ok (Some sn) ->
  sign1_verify O_der O_rfc O_verify TRaw TBytes devkey prot (Some (VRaw pl)) None sig (VBytes []) = Ok true ->
  claim 10 eat = Some (VBytes nonce) -> claim 256 eat = Some (VBytes (byte_of_N 1 :: guid)) ->
  claim (-257) eat = Some (VList [VBytes xb]) -> xb_ok xb = true ->
  prove_device_ok O_der O_rfc O_verify devkey guid nonce xb_ok body = true.
Proof. intros. eapply prove_device_complete; eauto using open_token_enc. Qed.
Print Assumptions C02_honest_accepted.

(* non-vacuity: with the proof, service; without (wrong signer / replayed token / plaintext 66), errors only *)
Example C02_with_and_without :
  snd (run [] [mkreq 60 TInvalid true false false; mkreq 64 (TSess 0) true false false; mkreq 66 (TSess 0) true true true;
               mkreq 60 TInvalid true false false; mkreq 64 (TSess 1) false false false; mkreq 66 (TSess 1) true false false]) =
  [(RType 61, []); (RType 65, []); (RType 67, []); (RType 61, []); (RType 255, []); (RType 255, [])].
Proof. vm_compute. reflexivity. Qed.
