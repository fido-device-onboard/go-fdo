(* Props/C13.v — COSE signatures and MACs verify exactly what was signed, with the right key.
   Model: Cose/Sign1.v (mirror of cose.Sign1.Verify / Mac0.Digest on top of the CBOR codec model).  The signature,
   hash and HMAC primitives are universally quantified oracles; unforgeability is a property of the primitives and is
   not claimed.  The algorithm registries come from Gen/Tables.v, regenerated from the compiled package. *)
From FDO Require Import Cose.Sign1 Cose.Sign1Facts.

(* never panics: any object, key, payload, AAD, oracle behaviour *)
Theorem C13_no_panic : forall O_der O_rfc O_verify tP tA key prot stored detached sig aad p,
  sign1_verify O_der O_rfc O_verify tP tA key prot stored detached sig aad <> Panic p.
Proof. exact sign1_verify_no_panic. Qed.
Print Assumptions C13_no_panic.

(* acceptance = the primitive said yes for exactly: this key, the hash of the protected algorithm, the Sig_structure
   of (re-encoded protected header, external AAD, effective payload), this signature (ECDSA: exactly 2n bytes split at n) *)
Theorem C13_exact : forall O_der O_rfc O_verify tP tA key prot stored detached sig aad,
  sign1_verify O_der O_rfc O_verify tP tA key prot stored detached sig aad = Ok true ->
  exists payload alg h tbs,
    (match detached with Some p => Some p | None => stored end) = Some payload /\
    parse_alg O_der O_rfc prot = Ok (Some alg) /\ sig_alg_hash alg = Some h /\
    tbs_bytes ctx_signature1 tP tA prot aad payload = Ok tbs /\
    ((exists n id, key = PubEC n id /\ length sig = (2 * n)%nat /\
                   O_verify id SchEcdsa h tbs [firstn n sig; skipn n sig] = true) \/
     (exists id, key = PubRSA id /\
                 (is_rs alg = true /\ O_verify id SchPkcs1 h tbs [sig] = true \/
                  is_rs alg = false /\ is_ps alg = true /\ O_verify id SchPss h tbs [sig] = true))).
Proof. exact sign1_verify_exact. Qed.
Print Assumptions C13_exact.

(* completeness, ECDSA: the fixed-width r||s encoding round-trips for all r, s < 256^n (leading zero bytes) *)
Theorem C13_complete_ec : forall O_der O_rfc O_verify tP tA n id prot stored detached payload aad alg h tbs r s
        (ec_ok : bytes -> N -> bytes -> N -> N -> bool),
  (forall id h tbs R S, O_verify id SchEcdsa h tbs [R; S] = ec_ok id h tbs (of_be R) (of_be S)) ->
  (match detached with Some p => Some p | None => stored end) = Some payload ->
  parse_alg O_der O_rfc prot = Ok (Some alg) -> sig_alg_hash alg = Some h ->
  tbs_bytes ctx_signature1 tP tA prot aad payload = Ok tbs ->
  (1 <= n)%nat -> (r < 256 ^ N.of_nat n)%N -> (s < 256 ^ N.of_nat n)%N ->
  ec_ok id h tbs r s = true ->
  sign1_verify O_der O_rfc O_verify tP tA (PubEC n id) prot stored detached (be n r ++ be n s) aad = Ok true.
Proof. exact sign1_complete_ec. Qed.
Print Assumptions C13_complete_ec.

Theorem C13_complete_rsa : forall O_der O_rfc O_verify tP tA id prot stored detached payload aad alg h tbs sig,
  (match detached with Some p => Some p | None => stored end) = Some payload ->
  parse_alg O_der O_rfc prot = Ok (Some alg) -> sig_alg_hash alg = Some h ->
  tbs_bytes ctx_signature1 tP tA prot aad payload = Ok tbs ->
  (2 <= length sig)%nat -> Nat.even (length sig) = true ->
  (is_rs alg = true /\ O_verify id SchPkcs1 h tbs [sig] = true \/
   is_rs alg = false /\ is_ps alg = true /\ O_verify id SchPss h tbs [sig] = true) ->
  sign1_verify O_der O_rfc O_verify tP tA (PubRSA id) prot stored detached sig aad = Ok true.
Proof. exact sign1_complete_rsa. Qed.
Print Assumptions C13_complete_rsa.

(* MAC0: the tag is the HMAC under the given key of exactly the MAC_structure; other key sizes are refused *)
Theorem C13_mac_exact : forall O_hmac tP tA alg key prot payload aad prot' tag,
  mac0_digest O_hmac tP tA alg key prot payload aad = Ok (prot', tag) ->
  exists h ksz m, mac_alg_hash alg = Some (h, ksz) /\ length key = ksz /\
    prot' = map_insert (VInt 1) (VInt alg) prot /\
    tbs_bytes ctx_mac0 tP tA prot' aad payload = Ok m /\ tag = O_hmac h key m.
Proof. exact mac0_exact. Qed.
Print Assumptions C13_mac_exact.

(* the registries the model consults are the ones compiled into the library: ES/RS/PS 256/384/512 and HMAC 256/384 *)
Theorem C13_registry :
  map (fun a => sig_alg_hash a) [-7; -35; -36; -257; -258; -259; -37; -38; -39; 0; -8]%Z =
  [Some 256; Some 384; Some 512; Some 256; Some 384; Some 512; Some 256; Some 384; Some 512; None; None]%N /\
  mac_alg_hash 5 = Some (256%N, 16%nat) /\ mac_alg_hash 6 = Some (384%N, 32%nat).
Proof. vm_compute. repeat split. Qed.
Print Assumptions C13_registry.

(* non-vacuity: with an oracle that accepts, an ES256-shaped object verifies; with an unknown algorithm it errs *)
Example C13_example_accept :
  sign1_verify (fun _ _ => true) (fun _ => None) (fun _ _ _ _ _ => true) TRaw TBytes (PubEC 2 [])
    [(VInt 1, VInt (-7))] (Some (VRaw [x01])) None [x00; x01; x02; x03] (VBytes []) = Ok true.
Proof. vm_compute. reflexivity. Qed.
Example C13_example_unknown_alg :
  sign1_verify (fun _ _ => true) (fun _ => None) (fun _ _ _ _ _ => true) TRaw TBytes (PubEC 2 [])
    [(VInt 1, VInt 0)] (Some (VRaw [x01])) None [x00; x01; x02; x03] (VBytes []) = Err EOther.
Proof. vm_compute. reflexivity. Qed.
