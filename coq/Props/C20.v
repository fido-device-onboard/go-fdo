(* Props/C20.v — Rendezvous instructions are interpreted totally and per role as specified.
   Model: Rv/RvImpl.v ([interp] mirrors protocol.parseDirective/parseURLs/cbor.ArrayShift on top of the CBOR
   decoder model).  [ipstring] (net.IP.String, standard library) is universally quantified. *)
From FDO Require Import Rv.RvImpl Rv.RvFacts Rv.RvSpec Gen.Tables Gen.TablesOk.
From Coq Require Import Permutation.

(* never panics, never diverges: every instruction list, both roles, yields a directive *)
Theorem C20_total : forall ipstring l dev, exists d, interp ipstring l dev = Ok d.
Proof. exact interp_total. Qed.
Print Assumptions C20_total.

(* a directive marked for the other role contributes nothing (no addresses, zero directive) *)
Theorem C20_role : forall ipstring l dev,
  (exists i, In i l /\ rv_var i = other_marker dev) -> interp ipstring l dev = Ok zero_dir.
Proof. exact interp_other_role. Qed.
Print Assumptions C20_role.

(* independent of the order of distinct instructions *)
Theorem C20_perm : forall ipstring l l' dev,
  Permutation l l' -> NoDup (map rv_var l) -> interp ipstring l dev = interp ipstring l' dev.
Proof. exact interp_perm. Qed.
Print Assumptions C20_perm.

(* malformed values (per-variable target type does not decode, wrong address length, ExtRV without a text
   mechanism) are ignored rather than misread: the result is that of the list without the instruction *)
Theorem C20_malformed_ignored : forall ipstring l l' i dev,
  malformed i -> interp ipstring (l ++ i :: l') dev = interp ipstring (l ++ l') dev.
Proof. exact interp_malformed_ignored. Qed.
Print Assumptions C20_malformed_ignored.

(* scheme and port tables: role-specific port, else the protocol's default; finite and exhaustive over
   9 protocol values x 2 roles x presence of protocol / role port / other role's port x both orders (288 rows) *)
Theorem C20_defaults_table : defaults_check = true.
Proof. exact defaults_table. Qed.
Print Assumptions C20_defaults_table.

Theorem C20_other_variables_do_not_touch_addresses : forall dev st i,
  rv_var i <> 2%N -> rv_var i <> 3%N -> rv_var i <> 4%N -> rv_var i <> 5%N -> rv_var i <> 12%N -> url_step dev st i = Ok st.
Proof. exact url_step_other. Qed.
Print Assumptions C20_other_variables_do_not_touch_addresses.

(* the variable / protocol / medium numbering the model dispatches on is the library's (regenerated table) *)
Theorem C20_numbering_is_the_codes :
  rv_vars = [0; 1; 2; 3; 4; 5; 6; 7; 8; 9; 10; 11; 12; 13; 14; 15]%N /\
  rv_protocols = [0; 1; 2; 3; 4; 5; 6]%N /\ rv_media_all = [20; 21]%N.
Proof. exact rv_numbering_is_code. Qed.
Print Assumptions C20_numbering_is_the_codes.

(* non-vacuity *)
Example C20_example :
  interp (fun a => a) [mkrvi 12 [x01]; mkrvi 5 [x63; x61; x2e; x62]; mkrvi 14 []; mkrvi 3 [x19; x1f; x90]] true
  = Ok (mkdir [(s_http, str [97; 46; 98; 58; 56; 48; 56; 48]%N)] true None None [] [] [] [] 0 None None).
Proof. vm_compute. reflexivity. Qed.

Example C20_example_malformed : malformed (mkrvi 5 [x63; x61]).   (* truncated text *)
Proof. unfold malformed. right. right. left. split; [left; reflexivity|]. vm_compute. reflexivity. Qed.
