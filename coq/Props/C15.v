(* Props/C15.v — Service-info chunking is lossless, ordered and within the MTU.
   Model: Svi/Chunk.v (mirror of serviceinfo.ChunkReader.ReadChunk, KV.Size, the batching loop of
   exchangeServiceInfoRound and the receiver's reassembly).  [wf_state]: every queued message starts with a CBOR text
   key in its canonical encoding (what UnchunkWriter.NextServiceInfo writes).  [flat]: the logical content not yet
   delivered; [norm]: drop byte-less entries and concatenate consecutive equal keys (what ChunkWriter/UnchunkReader do).
   The model is sequential; the producing goroutine is assumed to have finished the message being read. *)
From FDO Require Import Svi.Chunk Svi.ChunkFacts.

(* every emitted chunk fits the size budget it was given, and carries at least one byte *)
Theorem C15_chunk_fits : forall st size k v st',
  wf_state st -> read_chunk st size = (CKV k v, st') -> (kv_size k v <= size)%Z.
Proof. exact read_chunk_fits. Qed.
Print Assumptions C15_chunk_fits.

Theorem C15_chunk_nonempty : forall st size k v st',
  wf_state st -> read_chunk st size = (CKV k v, st') -> v <> [].
Proof. exact read_chunk_nonempty. Qed.
Print Assumptions C15_chunk_nonempty.

(* reading never fails for a well-formed producer, whatever size is offered (0, smaller than the key, huge) *)
Theorem C15_never_fails : forall st size r st',
  wf_state st -> read_chunk st size = (r, st') -> r <> CErr /\ wf_state st'.
Proof. split; [eapply read_chunk_no_err | eapply read_chunk_wf]; eassumption. Qed.
Print Assumptions C15_never_fails.

(* lossless, ordered, nothing duplicated or truncated: for EVERY schedule of size budgets (every MTU, every
   remainder before the budget is exhausted), what has been emitted together with what is still pending reassembles
   to the original stream; at end of stream the emitted chunks alone do *)
Theorem C15_lossless : forall st sizes emitted last st',
  wf_state st -> drain st sizes = (emitted, last, st') ->
  last <> CErr /\ norm (emitted ++ flat st') = norm (flat st).
Proof. exact drain_lossless. Qed.
Print Assumptions C15_lossless.

Theorem C15_complete_at_eof : forall st sizes emitted last st',
  wf_state st -> drain st sizes = (emitted, last, st') -> last = CEOF -> norm emitted = norm (flat st).
Proof. exact drain_complete. Qed.
Print Assumptions C15_complete_at_eof.

(* every batch packed into one DeviceServiceInfo fits the MTU, packing terminates, and loses nothing *)
Theorem C15_batch_fits : forall st mtu kvs more st',
  wf_state st -> (0 <= mtu)%Z -> round st mtu = RRound kvs more st' ->
  (fold_right (fun kv a => kv_size (fst kv) (snd kv) + a) 0 kvs <= mtu)%Z /\ wf_state st' /\
  norm (kvs ++ flat st') = norm (flat st).
Proof. exact round_fits. Qed.
Print Assumptions C15_batch_fits.

Theorem C15_batch_total : forall st mtu,
  wf_state st -> (0 <= mtu)%Z -> round st mtu <> ROutOfFuel.
Proof. exact round_total. Qed.
Print Assumptions C15_batch_total.

(* the one way a round fails: a pending key does not fit even an empty message of that size (outside the usable MTU
   range); the device then reports an error instead of dropping the entry *)
Theorem C15_fails_only_on_unsendable_key : forall st mtu,
  wf_state st -> (0 <= mtu)%Z -> round st mtu = RFail ->
  exists st1 st2 c, wf_state st1 /\ read_chunk st1 mtu = (CTooSmall, st2) /\ cs_cur st2 = Some c.
Proof. exact round_fails_only_on_unsendable_key. Qed.
Print Assumptions C15_fails_only_on_unsendable_key.

(* a forced message break (yield) ends the current DeviceServiceInfo with IsMoreServiceInfo set once the message holds an
   entry; at the very start of a message there is nothing to separate and the round goes on as if it were not there
   (nothing is dropped) *)
Theorem C15_yield_ends_message : forall fuel st max_read mtu acc q,
  cs_cur st = None -> cs_queue st = [] :: q -> max_read <> mtu ->
  round_loop (S fuel) st max_read mtu acc = RRound (rev acc) true (mkcs None q).
Proof. exact yield_ends_message. Qed.
Print Assumptions C15_yield_ends_message.

Theorem C15_leading_yield_skipped : forall st mtu q,
  cs_cur st = None -> cs_queue st = [] :: q -> round st mtu = round (mkcs None q) mtu.
Proof. exact yield_round. Qed.
Print Assumptions C15_leading_yield_skipped.

(* non-vacuity: three devmod messages are a well-formed state and drain completely under an awkward schedule *)
Example C15_example_wf : wf_state ex_st.
Proof. exact ex_wf. Qed.

(* the message as a whole: exchangeServiceInfo hands the round the negotiated size minus 5; whatever the number of KVs, the
   encoded TO2.DeviceServiceInfo [IsMoreServiceInfo, [KV...]] then fits the negotiated size (kind chunk.exchange runs
   exchangeServiceInfo itself and measures whole messages filled to the brim with 0..1000 KVs) *)
Theorem C15_message_fits : forall st mtu kvs more st',
  wf_state st -> (5 <= mtu < 65536)%Z -> round st (exchange_budget mtu) = RRound kvs more st' ->
  (message_size kvs <= mtu)%Z.
Proof. exact message_fits. Qed.
Print Assumptions C15_message_fits.
