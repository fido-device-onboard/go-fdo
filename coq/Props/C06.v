(* Props/C06.v — the rendezvous server registers a redirect only for the voucher's current owner.
   Model: Fdo/Server.v for the session discipline, Fdo/Voucher.v (C04) for the entry chain, Cose/Sign1.v (C13) for the
   blob signature.  The fact [r_ok] of an OwnerSign (22) request stands for: voucher with >= 1 entry whose chain
   verifies, to0d hash equals the hash in the blob, nonce = the one issued in this session, blob signed by the key the
   voucher's last entry names, accepted TTL non-zero.  The TTL / expiry arithmetic is checked on the implementation. *)
From FDO Require Import Fdo.VoucherFacts Fdo.Server Fdo.ServerFacts Fdo.Owner Fdo.OwnerFacts Fdo.OwnerHonest.
Local Open Scope N_scope.

(* a blob is stored only for a 22 passing every check, with the token of a TO0 session whose Hello was answered *)
Theorem C06_store_gate : forall st h r st' t eff,
  reach st h -> handle st r = (st', RType t, eff) -> In ERVBlob eff ->
  exists id, r_tok r = TSess id /\ r_ok r = true /\ started_by h id PTO0 /\ r_type r = 22 /\ t = 23.
Proof.
  intros st h r st' t eff RCH H C.
  destruct (served RCH H) as [[-> _]|(id & p & s & s2 & TK & OK & ROW & B)]; [contradiction|].
  destruct ROW; try (exfalso; cbn in C; intuition discriminate). exists id. repeat split; auto. now apply B.
Qed.
Print Assumptions C06_store_gate.

(* a 22 replayed in another session, or presented with a finished / errored / foreign token, stores nothing *)
Theorem C06_bad_token : forall st r st' resp eff,
  lookup st (r_tok r) = None -> is_start (r_type r) = false -> handle st r = (st', resp, eff) ->
  st' = st /\ eff = [] /\ (resp = RType 255 \/ resp = RNoBody \/ resp = RType 0).
Proof. exact bad_token_no_effect. Qed.
Print Assumptions C06_bad_token.

(* what "the entry chain verifies" and "the voucher's current owner" mean: C04's characterisation *)
Theorem C06_chain : forall O_der O_rfc O_verify O_hash O_pubkey hdr hm e0 rest,
  verify_entries O_der O_rfc O_verify O_hash O_pubkey hdr hm (e0 :: rest) = Ok tt ->
  exists mk mfg alg h info hb mb,
    header_mfg_key hdr = Some mk /\ O_pubkey mk = Some mfg /\ hash_of_alg alg = Some h /\
    header_info hdr = Some info /\ enc enc_fuel ty_header hdr = Ok hb /\ enc enc_fuel ty_hash hm = Ok mb /\
    Forall (fun en => e_payload en <> None) (e0 :: rest) /\
    chain_ok O_der O_rfc O_verify O_hash O_pubkey alg h (O_hash h info) mfg (O_hash h (hb ++ mb)) (e0 :: rest).
Proof. exact verify_entries_chain. Qed.
Print Assumptions C06_chain.

Theorem C06_owner_is_last : forall O_pubkey hdr l en, owner_key O_pubkey hdr (l ++ [en]) = entry_key O_pubkey en.
Proof. exact owner_key_last. Qed.
Print Assumptions C06_owner_is_last.

(* what [r_ok] of a 22 means in bytes: the accepted body decodes to (to0d, to1d) where the to1d blob carries the hash of
   the to0d as re-encoded, the voucher inside the to0d has at least one entry and its chain verifies, the blob is signed
   by the key that chain ENDS in (the current owner, not an earlier one), the nonce is this session's and the requested
   wait passed the deployment's policy (correspondence: kind srv.proof) *)
Theorem C06_proof_bytes : forall O_der O_rfc O_verify O_hash O_pubkey nonce ttl_ok body,
  owner_sign_ok O_der O_rfc O_verify O_hash O_pubkey nonce ttl_ok body = true ->
  exists v0 hdr hm v3 ents wait tprot tun t0 halg hval tsig h tb e0 rest owner,
    sdec O_der O_rfc ty_owner_sign body =
      Ok (VList [VList [VList [v0; hdr; hm; v3; VList ents]; VInt wait; VBytes nonce];
                 VList [VMap tprot; tun; VList [t0; VList [VInt halg; VBytes hval]]; VBytes tsig]]) /\
    any_hash_of_alg halg = Some h /\
    enc Sign1.enc_fuel ty_to0d (VList [VList [v0; hdr; hm; v3; VList ents]; VInt wait; VBytes nonce]) = Ok tb /\
    O_hash h tb = hval /\
    entries_of_vals ents = Some (e0 :: rest) /\
    (exists r, verify_entries O_der O_rfc O_verify O_hash O_pubkey hdr hm (e0 :: rest) = Ok r) /\
    owner_key O_pubkey hdr (e0 :: rest) = Ok owner /\
    sign1_verify O_der O_rfc O_verify ty_to1d_payload TBytes owner tprot
      (Some (VList [t0; VList [VInt halg; VBytes hval]])) None tsig (VBytes []) = Ok true /\
    ttl_ok wait = true.
Proof. exact owner_sign_sound. Qed.
Print Assumptions C06_proof_bytes.

(* conversely the rendezvous server demands nothing else, and an honest registration, ENCODED, is accepted *)
Theorem C06_honest_accepted : forall O_der O_rfc O_verify O_hash O_pubkey nonce ttl_ok fe body v0 hdr hm v3 ents wait tprot tun t0 halg hval tsig h tb e0 rest owner,
  let v := VList [VList [VList [v0; hdr; hm; v3; VList ents]; VInt wait; VBytes nonce];
                  VList [VMap tprot; tun; VList [t0; VList [VInt halg; VBytes hval]]; VBytes tsig]] in
  RoundTripWf.wf O_der 0 ty_owner_sign v -> enc fe ty_owner_sign v = Ok body ->
  any_hash_of_alg halg = Some h ->
  enc Sign1.enc_fuel ty_to0d (VList [VList [v0; hdr; hm; v3; VList ents]; VInt wait; VBytes nonce]) = Ok tb ->
  O_hash h tb = hval ->
  entries_of_vals ents = Some (e0 :: rest) ->
  verify_entries O_der O_rfc O_verify O_hash O_pubkey hdr hm (e0 :: rest) = Ok tt ->
  owner_key O_pubkey hdr (e0 :: rest) = Ok owner ->
  sign1_verify O_der O_rfc O_verify ty_to1d_payload TBytes owner tprot
    (Some (VList [t0; VList [VInt halg; VBytes hval]])) None tsig (VBytes []) = Ok true ->
  ttl_ok wait = true ->
  owner_sign_ok O_der O_rfc O_verify O_hash O_pubkey nonce ttl_ok body = true.
Proof. intros. eapply owner_sign_complete; eauto using sdec_enc. Qed.
Print Assumptions C06_honest_accepted.

Example C06_run :
  snd (run [] [mkreq 20 TInvalid true false false; mkreq 22 (TSess 0) false false false;
               mkreq 20 TInvalid true false false; mkreq 22 (TSess 1) true false false; mkreq 22 (TSess 1) true false false]) =
  [(RType 21, []); (RType 255, []); (RType 21, []); (RType 23, [ERVBlob]); (RType 255, [])].
Proof. vm_compute. reflexivity. Qed.
