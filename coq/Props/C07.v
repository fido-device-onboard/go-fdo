(* Props/C07.v — TO1 releases the registered redirect, unmodified, only to the proven device.
   Model: Fdo/Server.v for the session discipline; Cose/Sign1.v (C13) for what "signed with the key" means, both for the
   device's token at the rendezvous server and for the owner's signature on the blob that the device checks in TO2.
   The fact [r_ok] of a ProveToRV (32) request stands for: token signed by the key of the registered voucher's device
   certificate for the claimed GUID, nonce = the one issued in this session, registration not expired.  Expiry and the
   device-side check are exercised on the implementation (clock positions around the expiry second; altered blobs). *)
From FDO Require Import Cose.Sign1Facts Fdo.Server Fdo.ServerFacts Fdo.Owner Fdo.OwnerFacts Fdo.OwnerHonest.
Local Open Scope N_scope.

(* RVRedirect (33) answers only a 32 passing every check, with the token of a TO1 session whose HelloRV was answered *)
Theorem C07_release_gate : forall st h r st' eff,
  reach st h -> handle st r = (st', RType 33, eff) ->
  exists id, r_tok r = TSess id /\ r_ok r = true /\ started_by h id PTO1 /\ r_type r = 32.
Proof.
  intros st h r st' eff RCH H.
  destruct (second_message_gate _ _ _ _ _ _ RCH H (or_intror (or_intror eq_refl)))
    as (id & p & TK & OK & SB & [(_ & _ & _ & [=])|[(_ & _ & _ & [=])|(_ & -> & T)]]).
  now exists id.
Qed.
Print Assumptions C07_release_gate.

Theorem C07_bad_token : forall st r st' resp eff,
  lookup st (r_tok r) = None -> is_start (r_type r) = false -> handle st r = (st', resp, eff) ->
  st' = st /\ eff = [] /\ (resp = RType 255 \/ resp = RNoBody \/ resp = RType 0).
Proof. exact bad_token_no_effect. Qed.
Print Assumptions C07_bad_token.

(* a token is good for one release: the final response ends the session *)
Theorem C07_single_use : forall st r st' eff id s,
  handle st r = (st', RType 33, eff) -> lookup st (r_tok r) = Some (id, s) -> is_start (r_type r) = false ->
  lookup st' (TSess id) = None.
Proof. intros st r st' eff id s H L IS. eapply dead_after_final_or_error; eauto. Qed.
Print Assumptions C07_single_use.

(* "signed with the key": acceptance of a COSE_Sign1 is exactly the primitive's yes for this key, the protected
   algorithm's hash and the Sig_structure of the re-encoded protected header and payload (device token and owner blob) *)
Theorem C07_signature_exact : forall O_der O_rfc O_verify tP tA key prot stored detached sig aad,
  sign1_verify O_der O_rfc O_verify tP tA key prot stored detached sig aad = Ok true ->
  exists payload alg h tbs,
    (match detached with Some p => Some p | None => stored end) = Some payload /\
    parse_alg O_der O_rfc prot = Ok (Some alg) /\ sig_alg_hash alg = Some h /\
    tbs_bytes ctx_signature1 tP tA prot aad payload = Ok tbs /\
    ((exists n id, key = PubEC n id /\ length sig = (2 * n)%nat /\
                   O_verify id SchEcdsa h tbs [firstn n sig; skipn n sig] = true) \/
     (exists id, key = PubRSA id /\
                 (is_rs alg = true /\ O_verify id SchPkcs1 h tbs [sig] = true \/
                  is_rs alg = false /\ is_ps alg = true /\ O_verify id SchPss h tbs [sig] = true))).
Proof. exact sign1_verify_exact. Qed.
Print Assumptions C07_signature_exact.

(* what [r_ok] of a 32 means in bytes: the body the rendezvous server accepted is a COSE_Sign1 over a claims map whose
   nonce claim is the nonce of this session and whose UEID is 0x01 followed by a 16-byte GUID that has a live
   registration, and the signature verifies under the device key of THAT registration (correspondence: kind srv.proof) *)
Theorem C07_proof_bytes : forall O_der O_rfc O_verify registered nonce body,
  prove_to_rv_ok O_der O_rfc O_verify registered nonce body = true ->
  exists prot unprot pl sig eat guid key,
    open_token O_der O_rfc body = Some (prot, unprot, pl, sig, eat) /\
    claim 10 eat = Some (VBytes nonce) /\ claim 256 eat = Some (VBytes (byte_of_N 1 :: guid)) /\ length guid = 16%nat /\
    registered guid = Some key /\
    sign1_verify O_der O_rfc O_verify TRaw TBytes key prot (Some (VRaw pl)) None sig (VBytes []) = Ok true.
Proof. exact prove_to_rv_sound. Qed.
Print Assumptions C07_proof_bytes.

(* conversely the rendezvous server demands nothing else of the token *)
Theorem C07_proof_bytes_complete : forall O_der O_rfc O_verify registered nonce body prot unprot pl sig eat guid key,
  open_token O_der O_rfc body = Some (prot, unprot, pl, sig, eat) ->
  claim 10 eat = Some (VBytes nonce) -> claim 256 eat = Some (VBytes (byte_of_N 1 :: guid)) -> length guid = 16%nat ->
  registered guid = Some key ->
  sign1_verify O_der O_rfc O_verify TRaw TBytes key prot (Some (VRaw pl)) None sig (VBytes []) = Ok true ->
  prove_to_rv_ok O_der O_rfc O_verify registered nonce body = true.
Proof. exact prove_to_rv_complete. Qed.
Print Assumptions C07_proof_bytes_complete.

(* the honest device is never refused: its well-formed token, ENCODED, passes (codec round trip + completeness) *)
Theorem C07_honest_accepted : forall O_der O_rfc O_verify registered nonce fe fe' prot unprot pl sig eat body guid key,
  RoundTripWf.wf O_der 0 ty_token (VList [VMap prot; VMap unprot; VRaw pl; VBytes sig]) ->
  enc fe ty_token (VList [VMap prot; VMap unprot; VRaw pl; VBytes sig]) = Ok body ->
  RoundTripWf.wf O_der 0 ty_eat (VMap eat) -> enc fe' ty_eat (VMap eat) = Ok pl ->
  claim 10 eat = Some (VBytes nonce) -> claim 256 eat = Some (VBytes (byte_of_N 1 :: guid)) -> length guid = 16%nat ->
  registered guid = Some key ->
  sign1_verify O_der O_rfc O_verify TRaw TBytes key prot (Some (VRaw pl)) None sig (VBytes []) = Ok true ->
  prove_to_rv_ok O_der O_rfc O_verify registered nonce body = true.
Proof. intros. eapply prove_to_rv_complete; eauto using open_token_enc. Qed.
Print Assumptions C07_honest_accepted.

Example C07_run :
  snd (run [] [mkreq 30 TInvalid true false false; mkreq 32 (TSess 0) false false false;
               mkreq 30 TInvalid true false false; mkreq 32 (TSess 1) true false false; mkreq 32 (TSess 1) true false false]) =
  [(RType 31, []); (RType 255, []); (RType 31, []); (RType 33, []); (RType 255, [])].
Proof. vm_compute. reflexivity. Qed.
