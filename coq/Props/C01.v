(* Props/C01.v — the device completes TO2 only with the owner its voucher chain designates.
   Model: Fdo/Device.v, the device's verifyOwner (checks on TO2.ProveOVHdr, fetching of every TO2.OVNextEntry, the
   voucher checks of Fdo/Voucher.v, owner key = last entry's key, to1d signature), over the bytes the device sent and
   received, decoded with the descriptors reflected from the library's message types.  [Proceed k n] is the only
   verdict after which the device sends its own ProveDevice token (and later talks to modules / returns a credential);
   [Abort] makes TO2 return an error.  Hash, HMAC, signature verification and key parsing are universally quantified. *)
From FDO Require Import Fdo.VoucherFacts Fdo.Device Fdo.DeviceFacts.
Local Open Scope Z_scope.

(* whatever the peer and the network deliver: the device goes on only if every check the property lists passed *)
Theorem C01_proceeds_only_if_checked : forall O_der O_rfc O_verify O_hash O_hmac O_pubkey d t61 b61 resps to1d k pdn,
  verify_owner O_der O_rfc O_verify O_hash O_hmac O_pubkey d (t61, b61) resps to1d = Proceed k pdn ->
  t61 = 61%N /\ checked O_der O_rfc O_verify O_hash O_hmac O_pubkey d b61 resps to1d k pdn.
Proof. exact verify_owner_sound. Qed.
Print Assumptions C01_proceeds_only_if_checked.

(* [checked] contains verify_entries = Ok: the chain verifies link by link from the manufacturer key (C04) *)
Theorem C01_chain : forall O_der O_rfc O_verify O_hash O_pubkey hdr hm e0 rest,
  verify_entries O_der O_rfc O_verify O_hash O_pubkey hdr hm (e0 :: rest) = Ok tt ->
  exists mk mfg alg h info hb mb,
    header_mfg_key hdr = Some mk /\ O_pubkey mk = Some mfg /\ hash_of_alg alg = Some h /\
    header_info hdr = Some info /\ enc enc_fuel ty_header hdr = Ok hb /\ enc enc_fuel ty_hash hm = Ok mb /\
    Forall (fun en => e_payload en <> None) (e0 :: rest) /\
    chain_ok O_der O_rfc O_verify O_hash O_pubkey alg h (O_hash h info) mfg (O_hash h (hb ++ mb)) (e0 :: rest).
Proof. exact verify_entries_chain. Qed.
Print Assumptions C01_chain.

(* ... and owner_key = Ok k: k is the key named by the chain's last entry, the key ProveOVHdr and the to1d blob verify under *)
Theorem C01_owner_is_last : forall O_pubkey hdr l en, owner_key O_pubkey hdr (l ++ [en]) = entry_key O_pubkey en.
Proof. exact owner_key_last. Qed.
Print Assumptions C01_owner_is_last.

(* a response of any other message type, or one entry response short, never leads on *)
Theorem C01_wrong_type_aborts : forall O_der O_rfc O_verify O_hash O_hmac O_pubkey d t b resps to1d,
  t <> 61%N -> verify_owner O_der O_rfc O_verify O_hash O_hmac O_pubkey d (t, b) resps to1d = Abort.
Proof.
  intros. unfold verify_owner. destruct (t =? 61)%N eqn:E; [apply N.eqb_eq in E; contradiction|reflexivity].
Qed.
Print Assumptions C01_wrong_type_aborts.

(* ... and conversely: when every one of those checks holds the device does go on, so [checked] is exactly the
   device's criterion (no hidden further condition, no check that silently never fires) *)
Theorem C01_proceeds_if_checked : forall O_der O_rfc O_verify O_hash O_hmac O_pubkey d b61 resps to1d k pdn,
  k <> PubOther ->
  checked O_der O_rfc O_verify O_hash O_hmac O_pubkey d b61 resps to1d k pdn ->
  verify_owner O_der O_rfc O_verify O_hash O_hmac O_pubkey d (61%N, b61) resps to1d = Proceed k pdn.
Proof. exact verify_owner_complete. Qed.
Print Assumptions C01_proceeds_if_checked.
