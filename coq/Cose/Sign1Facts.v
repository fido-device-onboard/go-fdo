(* Cose/Sign1Facts.v — COSE_Sign1 verification never panics; acceptance means the primitive said yes to exactly the
   Sig_structure of the re-encoded parts under the given key; what an honest signer produces is accepted; the COSE_Mac0
   digest never panics and is the HMAC of exactly the MAC_structure. *)
From FDO Require Import Cbor.DecFacts Cose.Sign1.
Local Open Scope N_scope.

Section Facts.
  Variable O_der : bool -> bytes -> bool.
  Variable O_rfc : bytes -> option Z.
  Variable O_verify : bytes -> sigscheme -> N -> bytes -> list bytes -> bool.
  Notation verify := (sign1_verify O_der O_rfc O_verify).

  Lemma parse_alg_no_panic prot p : parse_alg O_der O_rfc prot <> Panic p.
  Proof. unfold parse_alg. no_panic. Qed.
  Local Hint Resolve parse_alg_no_panic : no_panic.

  Theorem sign1_verify_no_panic tP tA key prot stored detached sig aad p :
    verify tP tA key prot stored detached sig aad <> Panic p.
  Proof. unfold sign1_verify, tbs_bytes. no_panic. Qed.

  (* Exactness: acceptance means the primitive was asked about exactly the Sig_structure built from the
     re-encoded protected header, the external AAD and the effective payload, with the hash of the protected
     algorithm, under the given key, and answered yes. *)
  Theorem sign1_verify_exact tP tA key prot stored detached sig aad :
    verify tP tA key prot stored detached sig aad = Ok true ->
    exists payload alg h tbs,
      (match detached with Some p => Some p | None => stored end) = Some payload /\
      parse_alg O_der O_rfc prot = Ok (Some alg) /\ sig_alg_hash alg = Some h /\
      tbs_bytes ctx_signature1 tP tA prot aad payload = Ok tbs /\
      ((exists n id, key = PubEC n id /\ length sig = (2 * n)%nat /\
                     O_verify id SchEcdsa h tbs [firstn n sig; skipn n sig] = true) \/
       (exists id, key = PubRSA id /\
                   (is_rs alg = true /\ O_verify id SchPkcs1 h tbs [sig] = true \/
                    is_rs alg = false /\ is_ps alg = true /\ O_verify id SchPss h tbs [sig] = true))).
  Proof.
    unfold sign1_verify. intros H. inv_run H.
    all: injection H as H; do 4 eexists; repeat (split; [eauto|]); eauto 7.
  Qed.

  (* Completeness for ECDSA incl. leading zeros: the fixed-width r||s encoding produced by the signer is split
     back into the same two numbers, for every coordinate size and all r, s below 256^n. *)
  Lemma split_fixed n r s :
    (r < 256 ^ N.of_nat n) -> (s < 256 ^ N.of_nat n) ->
    let sig := be n r ++ be n s in
    length sig = (2 * n)%nat /\ of_be (firstn n sig) = r /\ of_be (skipn n sig) = s.
  Proof.
    intros Hr Hs sig. unfold sig. repeat split.
    - rewrite app_length, !be_length. lia.
    - rewrite firstn_app, be_length, Nat.sub_diag, app_nil_r.
      rewrite firstn_all2 by (rewrite be_length; lia). now apply of_be_be.
    - rewrite skipn_app, be_length, Nat.sub_diag. cbn [skipn].
      rewrite skipn_all2 by (rewrite be_length; lia). cbn [app]. now apply of_be_be.
  Qed.

  Theorem sign1_complete_ec tP tA n id prot stored detached payload aad alg h tbs r s
          (ec_ok : bytes -> N -> bytes -> N -> N -> bool) :
    (forall id h tbs R S, O_verify id SchEcdsa h tbs [R; S] = ec_ok id h tbs (of_be R) (of_be S)) ->
    (match detached with Some p => Some p | None => stored end) = Some payload ->
    parse_alg O_der O_rfc prot = Ok (Some alg) -> sig_alg_hash alg = Some h ->
    tbs_bytes ctx_signature1 tP tA prot aad payload = Ok tbs ->
    (1 <= n)%nat -> r < 256 ^ N.of_nat n -> s < 256 ^ N.of_nat n ->
    ec_ok id h tbs r s = true ->
    verify tP tA (PubEC n id) prot stored detached (be n r ++ be n s) aad = Ok true.
  Proof.
    intros HO HP HA HH HT Hn Hr Hs Hok. unfold sign1_verify. rewrite HP.
    destruct (split_fixed n r s Hr Hs) as [L [F S]].
    rewrite L. destruct (Nat.ltb_spec (2 * n) 2); [lia|].
    replace (Nat.even (2 * n)) with true by (symmetry; apply Nat.even_spec; exists n; lia). cbn [negb].
    rewrite HA. cbn [bind]. rewrite HH, HT. cbn [bind]. rewrite Nat.eqb_refl. cbn [negb].
    rewrite HO, F, S, Hok. reflexivity.
  Qed.

  Theorem sign1_complete_rsa tP tA id prot stored detached payload aad alg h tbs sig :
    (match detached with Some p => Some p | None => stored end) = Some payload ->
    parse_alg O_der O_rfc prot = Ok (Some alg) -> sig_alg_hash alg = Some h ->
    tbs_bytes ctx_signature1 tP tA prot aad payload = Ok tbs ->
    (2 <= length sig)%nat -> Nat.even (length sig) = true ->
    (is_rs alg = true /\ O_verify id SchPkcs1 h tbs [sig] = true \/
     is_rs alg = false /\ is_ps alg = true /\ O_verify id SchPss h tbs [sig] = true) ->
    verify tP tA (PubRSA id) prot stored detached sig aad = Ok true.
  Proof.
    intros HP HA HH HT L E Hok. unfold sign1_verify. rewrite HP.
    destruct (Nat.ltb_spec (length sig) 2); [lia|]. rewrite E. cbn [negb].
    rewrite HA. cbn [bind]. rewrite HH, HT. cbn [bind].
    destruct Hok as [[R V] | [R [P V]]].
    - rewrite R. apply f_equal. exact V.
    - rewrite R, P. apply f_equal. exact V.
  Qed.

End Facts.
#[export] Hint Resolve parse_alg_no_panic sign1_verify_no_panic : no_panic.

Section MacFacts.
  Variable O_hmac : N -> bytes -> bytes -> bytes.

  (* MacAlgorithm.KeySize panics on an identifier that is not registered *)
  Lemma mac0_digest_no_panic tP tA alg key prot payload aad p :
    mac_alg_hash alg <> None -> mac0_digest O_hmac tP tA alg key prot payload aad <> Panic p.
  Proof. unfold mac0_digest, tbs_bytes. no_panic. congruence. Qed.

  (* MAC: the tag is the HMAC, under the given key, of exactly the MAC_structure; wrong key sizes are refused *)
  Theorem mac0_exact tP tA alg key prot payload aad prot' tag :
    mac0_digest O_hmac tP tA alg key prot payload aad = Ok (prot', tag) ->
    exists h ksz m, mac_alg_hash alg = Some (h, ksz) /\ length key = ksz /\
      prot' = map_insert (VInt 1) (VInt alg) prot /\
      tbs_bytes ctx_mac0 tP tA prot' aad payload = Ok m /\ tag = O_hmac h key m.
  Proof. unfold mac0_digest. intros H. inv_run H. injection H as <- <-. eauto 8. Qed.
End MacFacts.
#[export] Hint Resolve mac0_digest_no_panic : no_panic.
