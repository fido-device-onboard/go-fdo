(* Kex/KdfFacts.v — the KDF loop refines SP 800-108 counter mode; key lengths; DH agreement and rejection; one
   field of the ECDH parameter codec. *)
From FDO Require Import Kex.Kdf.
Local Open Scope N_scope.

(* ceiling of a / b, in the form the loop bounds of Kex/Kdf.v are written *)
Definition cdiv (a b : N) : N := a / b + (if a mod b =? 0 then 0 else 1).

Lemma cdiv_cover a b : 0 < b -> a <= cdiv a b * b.
Proof.
  intros Hb. unfold cdiv. pose proof (N.div_mod a b) as D. 
  destruct (N.eqb_spec (a mod b) 0); lia.
Qed.

Lemma cdiv_least a b n : a <= n * b -> cdiv a b <= n.
Proof.
  intros Hn. unfold cdiv. pose proof (N.div_mod a b) as D.
  destruct (N.lt_trichotomy n (a / b)) as [Hlt|[->|Hgt]].
  - assert ((n + 1) * b <= a / b * b) by (apply N.mul_le_mono_r; lia). lia.
  - destruct (N.eqb_spec (a mod b) 0); lia.
  - destruct (_ =? 0); lia.
Qed.

Section KdfFacts.
  Variable prf : bytes -> bytes -> bytes.
  Variable hbytes : nat.
  Hypothesis prf_len : forall k m, length (prf k m) = hbytes.
  Hypothesis hpos : (0 < hbytes)%nat.

  Lemma blocks_length kin ctx L : forall n i, length (blocks prf kin ctx L i n) = (n * hbytes)%nat.
  Proof. induction n as [|n IH]; intros i; cbn [blocks]; [reflexivity|]. rewrite app_length, prf_len, IH. lia. Qed.

  Lemma blocks_app kin ctx L : forall n m i,
    blocks prf kin ctx L i (n + m) = blocks prf kin ctx L i n ++ blocks prf kin ctx L (i + N.of_nat n) m.
  Proof.
    induction n as [|n IH]; intros m i; cbn [blocks Nat.add].
    - now rewrite N.add_0_r.
    - rewrite IH, <- app_assoc. do 3 f_equal. lia.
  Qed.

  (* blocks beyond the first k bytes do not matter *)
  Lemma firstn_blocks kin ctx L i k n m :
    (k <= n * hbytes)%nat -> (n <= m)%nat ->
    firstn k (blocks prf kin ctx L i m) = firstn k (blocks prf kin ctx L i n).
  Proof.
    intros Hk Hm. replace m with (n + (m - n))%nat by lia.
    rewrite blocks_app, firstn_app, blocks_length.
    replace (k - n * hbytes)%nat with 0%nat by lia. apply app_nil_r.
  Qed.

  (* the code computes its number of rounds with the hash size in bytes although L is in bits, up to eight times the
     ceil(L/h) of the standard; only the first L/8 bytes are kept, so the surplus blocks do not matter *)
  Theorem kdf_refines_spec kin ctx L :
    kdf_iterations hbytes L <= 255 -> kdf prf hbytes kin ctx L = Ok (kdf_spec prf hbytes kin ctx L).
  Proof.
    intros Hn. unfold kdf. destruct (N.ltb_spec 255 (kdf_iterations hbytes L)); [lia|]. f_equal.
    unfold kdf_spec. change (kdf_iterations hbytes L) with (cdiv L (N.of_nat hbytes)).
    set (h := N.of_nat hbytes). fold (cdiv L (8 * h)). assert (Hh : 0 < h) by lia.
    pose proof (cdiv_cover L h Hh) as C1. pose proof (cdiv_cover L (8 * h) ltac:(lia)) as C8.
    apply firstn_blocks.
    -  lia.
    - assert (cdiv L (8 * h) <= cdiv L h) by (apply cdiv_least; lia). lia.
  Qed.

  Theorem kdf_length kin ctx L k :
    kdf prf hbytes kin ctx L = Ok k -> length k = N.to_nat (L / 8).
  Proof.
    unfold kdf. destruct (_ <? _); [discriminate|]. intros [= <-].
    rewrite firstn_length, blocks_length. change (kdf_iterations hbytes L) with (cdiv L (N.of_nat hbytes)).
    pose proof (cdiv_cover L (N.of_nat hbytes) ltac:(lia)).  lia.
  Qed.
End KdfFacts.

Lemma pow_mod_l x e p : 0 < p -> ((x mod p) ^ e) mod p = (x ^ e) mod p.
Proof.
  intros Hp. induction e as [|e IH] using N.peano_ind; [reflexivity|].
  rewrite !N.pow_succ_r'. rewrite N.mul_mod by lia. rewrite IH.
  rewrite N.mod_mod by lia. now rewrite <- N.mul_mod by lia.
Qed.

Lemma dh_commutes g a b p : 0 < p -> ((g ^ a mod p) ^ b) mod p = ((g ^ b mod p) ^ a) mod p.
Proof. intros Hp. rewrite !pow_mod_l by assumption. rewrite <- !N.pow_mul_r. now rewrite N.mul_comm. Qed.

Section DhFacts.
  Variable modexp : N -> N -> N -> N.
  Variable prf : bytes -> bytes -> bytes.
  Variable hbytes : nat.
  Hypothesis modexp_spec : forall b e m, modexp b e m = (b ^ e) mod m.

  (* both sides derive the same keys *)
  Theorem dh_agree g p plen a b ss vs xB kd ko :
    0 < p ->
    dh_device_param modexp prf hbytes g p plen (dh_owner_param modexp g p a) b ss vs = Ok (xB, kd) ->
    dh_owner_set modexp prf hbytes p plen (Some a) xB ss vs = Ok ko ->
    kd = ko.
  Proof.
    intros Hp. unfold dh_device_param, dh_owner_set, dh_owner_param.
    destruct (dh_symmetric_key _ _ _ _ _ _ _ _ _) as [kd'| | |] eqn:ED; cbn [bind]; try discriminate.
    intros H; inversion H; subst.  rewrite of_be_be_min. intros EO.
    unfold dh_symmetric_key in *. rewrite of_be_be_min in ED.
    rewrite !modexp_spec in *.
    destruct (_ || _) in ED; [discriminate|]. destruct (_ || _) in EO; [discriminate|].
    rewrite (dh_commutes g a b p Hp) in ED.
    destruct (_ || _) in ED; [discriminate|]. destruct (_ || _) in EO; [discriminate|].
    rewrite ED in EO. now inversion EO.
  Qed.

End DhFacts.

(* nothing is assumed of modexp from here on *)
Section DhGuards.
  Variable modexp : N -> N -> N -> N.
  Variable prf : bytes -> bytes -> bytes.
  Variable hbytes : nat.

  (* degenerate or out-of-range public values are rejected instead of producing a key *)
  Theorem dh_reject p plen own other ss vs :
    4 <= p -> (other = 0 \/ other = 1 \/ other = p - 1 \/ other = p \/ other = p + 1) ->
    exists e, dh_symmetric_key modexp prf hbytes other own p plen ss vs = Err e.
  Proof.
    intros Hp H. unfold dh_symmetric_key.
    destruct (N.ltb_spec other 2); cbn [orb]; [eexists; reflexivity|].
    destruct (N.ltb_spec (p - 2) other); [eexists; reflexivity|]. lia.
  Qed.

  (* a replayed second SetParameter (private part erased) is an error, not a crash *)
  Theorem dh_second_set p plen xB ss vs : dh_owner_set modexp prf hbytes p plen None xB ss vs = Err EOther.
  Proof. reflexivity. Qed.

  (* key lengths are exactly what the cipher needs *)
  Theorem dh_key_lengths other own p plen ss vs sek svk :
    (forall k m, length (prf k m) = hbytes) -> (0 < hbytes)%nat ->
    dh_symmetric_key modexp prf hbytes other own p plen ss vs = Ok (sek, svk) ->
    length sek = ss /\ length svk = vs.
  Proof.
    intros PL HP. unfold dh_symmetric_key.
    destruct (_ || _); [discriminate|]. destruct (_ || _); [discriminate|].
    destruct (kdf prf hbytes _ _ _) as [k| | |] eqn:EK; cbn [bind]; try discriminate.
    intros H; inversion H; subst. apply (kdf_length prf hbytes PL HP) in EK.
    
    rewrite firstn_length, skipn_length. lia.
  Qed.
End DhGuards.

(* ECDH parameter codec: a length-prefixed field is read back *)
Lemma take16_be a r : N.of_nat (length a) < 65536 -> take16 (be 2 (N.of_nat (length a)) ++ a ++ r) = Ok (a, r).
Proof.
  intros H. cbn [be app take16]. rewrite !to_byte_of_N.
  replace (N.to_nat _) with (length a) by lia. now rewrite take_app.
Qed.
