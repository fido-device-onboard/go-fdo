(* Kex/CrypterFacts.v — the session crypter never panics on a registered suite, and a message it accepts has the
   structure the suite demands: the wrapper of the suite's family, a MAC that verifies (encrypt-then-MAC suites), an
   inner COSE_Encrypt0 whose algorithm header is the suite's. *)
From FDO Require Import Cbor.DecFacts Cose.Sign1Facts Kex.Crypter.
Local Open Scope N_scope.

Section Facts.
  Variable O_der : bool -> bytes -> bool.
  Variable O_rfc : bytes -> option Z.
  Variable O_aead_open : bytes -> bytes -> bytes -> bytes -> option bytes.
  Variable O_ctr : bytes -> bytes -> bytes -> bytes.
  Variable O_cbc_dec : bytes -> bytes -> bytes -> bytes.

  Notation e0dec := (encrypt0_decrypt O_der O_rfc O_aead_open O_ctr O_cbc_dec).

  Lemma parse_hdr_no_panic t l m p : parse_hdr O_der O_rfc t l m <> Panic p.
  Proof. unfold parse_hdr. no_panic. Qed.
  Local Hint Resolve parse_hdr_no_panic : no_panic.

  Definition alg_ok (alg : Z) : Prop :=
    enc_alg_info alg <> None /\ enc_alg_mode alg <> MUnimplemented.

  Lemma encrypt0_decrypt_no_panic alg key prot unprot ct p : alg_ok alg -> e0dec alg key prot unprot ct <> Panic p.
  Proof. intros [Hi Hm]. unfold encrypt0_decrypt, enc_structure. no_panic; congruence. Qed.

  (* what acceptance of a COSE_Encrypt0 means *)
  Theorem encrypt0_decrypt_authentic alg key prot unprot ct x :
    e0dec alg key prot unprot ct = Ok x ->
    exists ad ksz c iv p,
      enc_alg_info alg = Some (ad, ksz) /\ length key = ksz /\
      parse_hdr O_der O_rfc (TInt KI64) 1 (if ad then prot else unprot) = Ok (Some (VInt alg)) /\
      ct = Some c /\ parse_hdr O_der O_rfc TBytes 5 unprot = Ok (Some (VBytes iv)) /\
      unmarshal O_der O_rfc TRaw p = Ok (VRaw x) /\
      match enc_alg_mode alg with
      | MGcm => length iv = 12%nat /\ exists aad, (if ad then enc_structure prot else Ok []) = Ok aad /\ O_aead_open key iv aad c = Some p
      | MCtr => length iv = 16%nat /\ p = O_ctr key iv c
      | MCbc => length iv = 16%nat /\ length c <> 0%nat /\ Nat.modulo (length c) 16 = 0%nat /\
                let q := O_cbc_dec key iv c in
                (1 <= last_byte q <= 16) /\ p = firstn (length q - N.to_nat (last_byte q)) q
      | MUnimplemented => False
      end.
  Proof.
    unfold encrypt0_decrypt. intros H. inv_run H.
    match goal with M : match enc_alg_mode alg with _ => _ end = _ |- _ => destruct (enc_alg_mode alg); repeat inv_step M; try injection M as <- end.
    all: injection H as <-; subst; do 5 eexists; repeat split; eauto; lia.
  Qed.

  Variable O_hmac : N -> bytes -> bytes -> bytes.
  Notation cdec := (crypter_decrypt O_der O_rfc O_hmac O_aead_open O_ctr O_cbc_dec).

  Local Hint Resolve encrypt0_decrypt_no_panic : no_panic.

  Definition suite_ok (s : suite) : Prop :=
    alg_ok (s_enc s) /\ ((s_mac s =? 0)%Z = false -> mac_alg_hash (s_mac s) <> None).

  (* In [crypter_decrypt], [match pl with VNull => _ | _ => K end] is elaborated with K (the MAC check and all of the
     Encrypt0 branch) copied into the eight other cases of [val].  The continuation of [unmarshal ty_mac0_enc0 raw], which
     holds these copies, mentions nothing that is read before it: it is kept behind the name [mac0] while the steps before
     it are walked (each would carry it whole), and opened once they are done. *)
  Ltac name_mac0 := lazymatch goal with |- context [bind (unmarshal _ _ ty_mac0_enc0 _) ?f] => set (mac0 := f) end.

  (* Decrypting never panics for any suite whose algorithms are registered and implemented. *)
  Theorem crypter_decrypt_no_panic s sek svk wire p : suite_ok s -> cdec s sek svk wire <> Panic p.
  Proof. intros [Ha Hmac]. unfold crypter_decrypt. name_mac0. no_panic. subst mac0. cbv beta. no_panic. Qed.

  (* Authenticity structure: what acceptance of a wire message means; the inner COSE_Encrypt0 is above. *)
  Theorem crypter_decrypt_authentic s sek svk wire pt :
    cdec s sek svk wire = Ok pt ->
    exists n raw rest, dec O_der O_rfc (fuel_for wire) 0 (TTag TRaw) wire = Ok (VTag n (VRaw raw), rest) /\
    ((s_mac s = 0%Z /\ n = 16 /\
      exists prot unprot ctv, unmarshal O_der O_rfc ty_encrypt0 raw = Ok (VList [VMap prot; VMap unprot; ctv]) /\
        e0dec (s_enc s) sek prot unprot (match ctv with VBytes c => Some c | _ => None end) = Ok pt) \/
     (s_mac s <> 0%Z /\ n = 17 /\
      exists mprot u value prot unprot ctv prot',
        unmarshal O_der O_rfc ty_mac0_enc0 raw = Ok (VList [VMap mprot; u; VList [VMap prot; VMap unprot; ctv]; VBytes value]) /\
        mac0_digest O_hmac ty_encrypt0 TBytes (s_mac s) svk mprot (VList [VMap prot; VMap unprot; ctv]) (VBytes []) = Ok (prot', value) /\
        e0dec (s_enc s) sek prot unprot (match ctv with VBytes c => Some c | _ => None end) = Ok pt)).
  Proof.
    unfold crypter_decrypt. name_mac0. intros H. inv_run H.
    all: try match goal with M := _ |- _ => subst M; cbv beta in H; inv_run H end.
    all: subst; do 3 eexists; eauto 15.
  Qed.

End Facts.
#[export] Hint Resolve parse_hdr_no_panic encrypt0_decrypt_no_panic crypter_decrypt_no_panic : no_panic.

Definition all_suites : list suite :=
  map (fun r => match r with (_, (e, m, p)) => mksuite e m p end) Gen.Tables.cipher_suite_table.

(* finite check over the regenerated table *)
Lemma all_suites_ok : Forall suite_ok all_suites.
Proof. repeat constructor; cbv; congruence. Qed.

Theorem registered_suite_no_panic O_der O_rfc O_hmac O_aead_open O_ctr O_cbc_dec s sek svk wire p :
  In s all_suites -> crypter_decrypt O_der O_rfc O_hmac O_aead_open O_ctr O_cbc_dec s sek svk wire <> Panic p.
Proof. intros IN. apply crypter_decrypt_no_panic. exact (proj1 (Forall_forall _ _) all_suites_ok s IN). Qed.
