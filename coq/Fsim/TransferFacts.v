(* Fsim/TransferFacts.v — files arrive bit-identical under the announced name, or not at all. *)
From FDO Require Import Fsim.Transfer.
Local Open Scope Z_scope.

Section Facts.
  Variable sha384 : bytes -> bytes.
  Notation dl_step := (dl_step sha384).
  Notation dl_run := (dl_run sha384).
  Notation ul_step := (ul_step sha384).
  Notation ul_run := (ul_run sha384).

  (* two guards of the receivers, as propositions: a digest is checked when one was announced; a name must be there *)
  Lemma digest_guard sha b :
    (negb (Nat.eqb (length sha) 0) && negb (bytes_eqb (sha384 b) sha))%bool = false -> sha <> [] -> sha384 b = sha.
  Proof.
    destruct sha as [|x sha']; [contradiction|]. cbn [length Nat.eqb negb andb]. intros E _.
    now apply negb_false_iff, bytes_eqb_eq in E.
  Qed.

  Lemma nonempty_guard (b : bytes) : Nat.eqb (length b) 0 = false <-> b <> [].
  Proof. destruct b; cbn; split; congruence. Qed.

  Theorem dl_sound s m s' rp n c : dl_step s m = (s', rp, Some (n, c)) ->
    exists chunks, m = MData chunks false /\ c = r_buf s ++ concat chunks /\ blen c = r_length s /\
      (r_sha s <> [] -> sha384 c = r_sha s) /\ n = r_name s /\ n <> [] /\ rp = Some (RDone (blen c)) /\ s' = r0.
  Proof.
    destruct m as [x|l|d|chunks [|]|]; cbn [Transfer.dl_step]; try discriminate.
    unfold dl_finalize. cbn [r_length r_buf r_name r_sha].
    destruct (Z.leb_spec (r_length s) (blen (r_buf s ++ concat chunks))) as [GE|]; [|discriminate].
    destruct (Z.ltb_spec (r_length s) (blen (r_buf s ++ concat chunks))) as [|LE]; [discriminate|].
    destruct (_ && _)%bool eqn:SH; [discriminate|]. destruct (Nat.eqb (length (r_name s)) 0) eqn:NM; [discriminate|].
    intros [= <- <- <- <-]. exists chunks. pose proof (digest_guard _ _ SH). apply nonempty_guard in NM.
    repeat split; auto. lia.
  Qed.

  Theorem ul_sound s m s' c : ul_step s m = (s', Some (inr c)) ->
    m = UTick /\ c = u_buf s /\ blen c = u_length s /\ sha384 c = u_sha s /\ u_sha s <> [] /\ u_over s' = true.
  Proof.
    unfold Transfer.ul_step. destruct (u_over s); [discriminate|].
    destruct m as [[x|l|d|chunks [|]|]|]; try discriminate.
    destruct (negb (Nat.eqb _ 0)) eqn:NE; [|discriminate]. destruct (0 <? _); [|discriminate]. cbn [andb].
    destruct (Z.leb_spec (u_length s) (blen (u_buf s))) as [GE|]; [|discriminate].
    destruct (Z.ltb_spec (u_length s) (blen (u_buf s))) as [|LE]; [discriminate|].
    destruct (bytes_eqb _ _) eqn:SH; [|discriminate]. intros [= <- <-].
    apply bytes_eqb_eq in SH. apply negb_true_iff, nonempty_guard in NE. repeat split; auto. lia.
  Qed.

  Theorem wget_sound name sha body n c : wget_result sha384 name sha body = Some (n, c) ->
    body = Some c /\ n = name /\ n <> [] /\ (sha <> [] -> sha384 c = sha).
  Proof.
    unfold wget_result. destruct body as [b|]; [|discriminate].
    destruct (_ && _)%bool eqn:SH; [discriminate|]. destruct (Nat.eqb (length name) 0) eqn:NM; [discriminate|].
    intros [= <- <-]. pose proof (digest_guard _ _ SH). apply nonempty_guard in NM. auto.
  Qed.

  Lemma chunks_fuel_concat fuel sz data : (1 <= sz)%nat -> (length data <= fuel)%nat -> concat (chunks_fuel fuel sz data) = data.
  Proof.
    revert data. induction fuel as [|f IH]; intros data SZ LE.
    - destruct data; [reflexivity|cbn in LE; lia].
    - cbn [chunks_fuel]. destruct data as [|x r]; [reflexivity|]. cbn [concat].
      rewrite IH; [apply firstn_skipn|exact SZ|].
      rewrite skipn_length. cbn [length] in *. lia.
  Qed.
  Theorem chunks_concat sz data : (1 <= sz)%nat -> concat (chunks sz data) = data.
  Proof. intros H. apply chunks_fuel_concat; auto. Qed.

  Lemma chunks_fuel_bounds fuel sz data : (1 <= sz)%nat -> Forall (fun c => (1 <= length c <= sz)%nat) (chunks_fuel fuel sz data).
  Proof.
    revert data. induction fuel as [|f IH]; [constructor|].
    cbn [chunks_fuel]. destruct data as [|x r]; constructor; [|now apply IH].
    rewrite firstn_length. cbn [length]. lia.
  Qed.
  Theorem chunks_bounds sz data : (1 <= sz)%nat -> Forall (fun c => (1 <= length c <= sz)%nat) (chunks sz data).
  Proof. apply chunks_fuel_bounds. Qed.

  (* end to end, download: the receiver fed the sender's messages produces exactly the file, once, at the end *)
  Definition quiet (n : nat) : list (option reply * option (bytes * bytes)) := repeat (None, None) n.

  Lemma blen_app a b : blen (a ++ b) = blen a + blen b.
  Proof. unfold blen. rewrite app_length. lia. Qed.

  Lemma dl_finalize_ok name d : name <> [] ->
    dl_finalize sha384 (mkr name (blen d) (sha384 d) d) = (r0, Some (RDone (blen d)), Some (name, d)).
  Proof.
    intros NM. unfold dl_finalize. cbn [r_length r_buf r_name r_sha].
    rewrite Z.ltb_irrefl, bytes_eqb_refl, andb_false_r. apply nonempty_guard in NM. now rewrite NM.
  Qed.

  (* the receiver part-way through the file [d]: [p] received, the chunks [cs] still to come *)
  Lemma dl_chunks name d cs : name <> [] -> Forall (fun c => (1 <= length c)%nat) cs -> cs <> [] ->
    forall p, d = p ++ concat cs ->
    dl_run (mkr name (blen d) (sha384 d) p) (map (fun c => MData [c] false) cs) =
      (r0, quiet (length cs - 1) ++ [(Some (RDone (blen d)), Some (name, d))]).
  Proof.
    intros NM ALL. induction ALL as [|c cs C1 ALL IH]; intros NE p D; [contradiction|].
    cbn [map Transfer.dl_run Transfer.dl_step r_length r_buf r_name r_sha concat] in *. rewrite app_nil_r.
    destruct ALL as [|c2 cs C2 ALL].
    - (* last chunk *)
      cbn [concat] in D. rewrite app_nil_r in D. subst d. rewrite Z.leb_refl, dl_finalize_ok by exact NM. reflexivity.
    - (* more to come: the announced length is not reached yet *)
      rewrite app_assoc in D. rewrite (proj2 (Z.leb_gt _ _)).
      + rewrite IH by (discriminate || exact D). cbn [length Nat.sub]. now rewrite Nat.sub_0_r.
      + subst d. cbn [concat]. rewrite !blen_app. unfold blen. lia.
  Qed.

  Theorem download_end_to_end name sz data : name <> [] -> data <> [] -> (1 <= sz)%nat ->
    dl_run r0 (download_messages sha384 name sz data) =
      (r0, quiet (3 + (length (chunks sz data) - 1)) ++ [(Some (RDone (blen data)), Some (name, data))]).
  Proof.
    intros NM ND SZ. unfold download_messages. cbn [app Transfer.dl_run Transfer.dl_step r_name r_length r_sha r_buf r0].
    pose proof (chunks_concat sz data SZ) as CC.
    rewrite (dl_chunks name data (chunks sz data)); [reflexivity | exact NM | | | now rewrite CC].
    - eapply Forall_impl; [|apply (chunks_bounds sz data SZ)]. cbn.  lia.
    - intros E. rewrite E in CC. now subst data.
  Qed.

  (* end to end, upload: the owner receiver fed the device's messages stores exactly the file, at the last tick *)
  Definition quiet2 (cs : list bytes) : list (option (unit + bytes)) := flat_map (fun _ => [None; None]) cs.

  (* the data messages, a tick after each, only fill the buffer; [tl] is what is sent after them *)
  Lemma ul_chunks cs : forall l b tl,
    ul_run (mku l [] b false) (flat_map (fun c => [UMsg (MData [c] false); UTick]) cs ++ tl) =
      let '(s, out) := ul_run (mku l [] (b ++ concat cs) false) tl in (s, quiet2 cs ++ out).
  Proof.
    induction cs as [|c cs IH]; intros l b tl; cbn [flat_map app Transfer.ul_run concat quiet2].
    - rewrite app_nil_r. now destruct (ul_run _ tl).
    - cbn [Transfer.ul_step u_over u_length u_sha u_buf concat length Nat.eqb negb andb].
      rewrite app_nil_r, IH, <- app_assoc. now destruct (ul_run _ tl).
  Qed.

  Theorem upload_end_to_end sz data : data <> [] -> sha384 data <> [] -> (1 <= sz)%nat ->
    snd (ul_run u0 (upload_messages sha384 sz data)) =
      [None; None] ++ quiet2 (chunks sz data) ++ [None; Some (inr data)].
  Proof.
    intros ND NS SZ. unfold upload_messages, u0.
    cbn [app Transfer.ul_run Transfer.ul_step u_over u_length u_sha u_buf length Nat.eqb negb andb].
    rewrite ul_chunks, (chunks_concat sz data SZ).
    cbn [app Transfer.ul_run Transfer.ul_step u_over u_length u_sha u_buf].
    apply nonempty_guard in NS. rewrite NS.
    assert (P : 0 < blen data) by (unfold blen; destruct data; [contradiction|cbn [length]; lia]).
    rewrite (proj2 (Z.ltb_lt _ _) P), Z.leb_refl, Z.ltb_irrefl, bytes_eqb_refl. reflexivity.
  Qed.
End Facts.
