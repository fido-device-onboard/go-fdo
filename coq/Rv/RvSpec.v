(* Rv/RvSpec.v — the specification's tables for address formation (FDO 1.1 section 3.7, RVProtocolValue /
   RVDevPort / RVOwnerPort), written independently of the fold in RvImpl.v, and a finite check that the
   interpreter model realises them for every protocol value, both roles, every presence/absence combination of
   the role's port, the other role's port, and both relative orders. *)
From FDO Require Import Rv.RvImpl.
Local Open Scope N_scope.

Definition spec_scheme (p : N) : bytes :=
  if p =? 1 then s_http else if p =? 2 then s_https else if p =? 3 then s_tcp
  else if p =? 4 then s_tls else if p =? 5 then s_coaptcp else if p =? 6 then s_coap else s_tls.
Definition spec_default_port (p : N) : bytes :=
  if p =? 1 then p80 else if p =? 2 then p443 else if (p =? 5) || (p =? 6) then p5683 else [].

(* CBOR encodings of small test values *)
Definition enc_u (n : N) : bytes := head 0 n.
Definition dns_ab : bytes := str [97; 46; 98].
Definition enc_dns : bytes := head 3 3 ++ dns_ab.
Definition ip_lo : bytes := str [127; 0; 0; 1].
Definition enc_ip : bytes := head 2 4 ++ ip_lo.

Definition mk_case (dev : bool) (p : N) (with_proto role_port other_port proto_first : bool) : list rvi :=
  let protos := if with_proto then [mkrvi 12 (enc_u p)] else [] in
  let ports := (if role_port then [mkrvi (if dev then 3 else 4) (enc_u 8080)] else []) ++
               (if other_port then [mkrvi (if dev then 4 else 3) (enc_u 9090)] else []) in
  [mkrvi 5 enc_dns] ++ (if proto_first then protos ++ ports else ports ++ protos) ++ [mkrvi 2 enc_ip].

Definition expected (p : N) (with_proto role_port : bool) : urlst :=
  mkurlst (if with_proto then spec_scheme p else s_tls)
          (if role_port then itoa 8080 else if with_proto then spec_default_port p else [])
          dns_ab ip_lo.

Definition urlst_eqb (a b : urlst) : bool :=
  bytes_eqb (u_scheme a) (u_scheme b) && bytes_eqb (u_port a) (u_port b) &&
  bytes_eqb (u_dns a) (u_dns b) && bytes_eqb (u_ip a) (u_ip b).

Definition bools := [true; false].
Definition protos : list N := [0; 1; 2; 3; 4; 5; 6; 7; 255].

Definition defaults_check : bool :=
  forallb (fun dev => forallb (fun p => forallb (fun wp => forallb (fun rp => forallb (fun op => forallb (fun pf =>
    match foldM (url_step dev) (mk_case dev p wp rp op pf) (mkurlst s_tls [] [] []) with
    | Ok st => urlst_eqb st (expected p wp rp)
    | _ => false
    end) bools) bools) bools) bools) protos) bools.

Lemma defaults_table : defaults_check = true.
Proof. vm_compute. reflexivity. Qed.

(* variables that do not take part in address formation leave the URL state alone *)
Lemma url_step_other dev st i :
  rv_var i <> 2 -> rv_var i <> 3 -> rv_var i <> 4 -> rv_var i <> 5 -> rv_var i <> 12 -> url_step dev st i = Ok st.
Proof.
  intros H2 H3 H4 H5 H12. unfold url_step.
  destruct (N.eqb_spec (rv_var i) 12); [contradiction|].
  destruct (N.eqb_spec (rv_var i) 3); [contradiction|].
  destruct (N.eqb_spec (rv_var i) 4); [contradiction|]. cbn [orb].
  destruct (N.eqb_spec (rv_var i) 5); [contradiction|].
  destruct (N.eqb_spec (rv_var i) 2); [contradiction|]. reflexivity.
Qed.

(* host assembly: DNS name first, then the IP address, each with the port appended when there is one *)
Lemma assemble_spec ipstring st :
  assemble ipstring st =
  (match u_dns st with [] => [] | d => [(u_scheme st, join_host_port d (u_port st))] end) ++
  (match u_ip st with [] => [] | a => [(u_scheme st, join_host_port (ipstring a) (u_port st))] end).
Proof. reflexivity. Qed.
