(* Rv/RvFacts.v — the rendezvous-instruction interpreter (Rv/RvImpl.v) is total, filters by role, ignores malformed
   values and does not depend on the order of distinct instructions.  The idea: every instruction assigns one field of
   the state, with a value taken from the instruction alone, and assignments made by different variables commute. *)
From FDO Require Import Cbor.DecFacts Rv.RvImpl.
From Coq Require Import Permutation.
Local Open Scope N_scope.

Lemma try_unm_ok t b : exists o, try_unm t b = Ok o.
Proof.
  unfold try_unm, unm. pose proof (unmarshal_total (fun _ _ => true) (fun _ => None) t b) as T.
  destruct (unmarshal _ _ t b); try contradiction; eexists; reflexivity.
Qed.

Lemma array_shift_ok data : exists p, array_shift data = Ok p.
Proof.
  unfold array_shift. destruct data as [|x data]; [eexists; reflexivity|].
  pose proof (read_head_total (x :: data)) as TH.
  destruct (read_head (x :: data)) as [[h r]| | |]; try contradiction; try (eexists; reflexivity).
  destruct (is_null_hd h); [eexists; reflexivity|].
  destruct (negb _); [eexists; reflexivity|].
  destruct (_ =? 0); [eexists; reflexivity|].
  assert (T : total (dec_raw (fuel_for r) 0 r)) by (apply dec_raw_total; unfold fuel_for; lia).
  destruct (dec_raw (fuel_for r) 0 r) as [[a b]| | |]; try contradiction; eexists; reflexivity.
Qed.

Lemma foldM_ok {A B} (f : A -> B -> outcome A) l :
  (forall a x, exists a', f a x = Ok a') -> forall a, exists a', foldM f l a = Ok a'.
Proof.
  intros Hf. induction l as [|x l IH]; intros a; cbn [foldM]; [eexists; reflexivity|].
  destruct (Hf a x) as [a' ->]. cbn [bind]. apply IH.
Qed.

Lemma foldM_app {A B} (f : A -> B -> outcome A) l1 l2 a :
  foldM f (l1 ++ l2) a = let* a' := foldM f l1 a in foldM f l2 a'.
Proof.
  revert a; induction l1 as [|x l1 IH]; intros a; cbn [foldM app bind]; [reflexivity|].
  destruct (f a x); cbn [bind]; auto.
Qed.

Lemma foldM_skip {A B} (f : A -> B -> outcome A) l x l' a :
  (forall a, f a x = Ok a) -> foldM f (l ++ x :: l') a = foldM f (l ++ l') a.
Proof.
  intros H. rewrite !foldM_app. cbn [foldM]. destruct (foldM f l a); cbn [bind]; try reflexivity. now rewrite H.
Qed.

(* An interpreter whose every step assigns fields, from a family of assignments that commute:
   [set f] is the assignment, [var f] the instruction variable that makes it; assignments made by different variables
   commute.  Then each step succeeds, and a list of instructions with distinct variables may be taken in any order. *)
Section Assign.
  Context {State Field : Type} (step : State -> rvi -> outcome State) (set : Field -> State -> State) (var : Field -> N).
  Hypothesis step_eff : forall i,
    (forall s, step s i = Ok s) \/ exists f, var f = rv_var i /\ forall s, step s i = Ok (set f s).
  Hypothesis set_comm : forall f g s, var f <> var g -> set f (set g s) = set g (set f s).

  Lemma step_ok s i : exists s', step s i = Ok s'.
  Proof. destruct (step_eff i) as [E|(f & _ & E)]; eauto. Qed.

  Lemma step_comm s i j : rv_var i <> rv_var j ->
    (let* a := step s i in step a j) = (let* a := step s j in step a i).
  Proof.
    intros NE. destruct (step_eff i) as [Ei|(f & Vf & Ei)], (step_eff j) as [Ej|(g & Vg & Ej)];
      rewrite ?Ei, ?Ej; cbn [bind]; rewrite ?Ei, ?Ej; try reflexivity.
    rewrite set_comm; [reflexivity|congruence].
  Qed.

  Lemma foldM_perm l l' :
    Permutation l l' -> NoDup (map rv_var l) -> forall s, foldM step l s = foldM step l' s.
  Proof.
    induction 1 as [|x l l' P IH|x y l|l l' l'' P1 IH1 P2 IH2]; cbn [map foldM]; intros ND s.
    - reflexivity.
    - destruct (step s x); cbn [bind]; [apply IH; now inversion ND|reflexivity..].
    - assert (NE : rv_var y <> rv_var x) by (inversion ND as [|? ? Hn]; intros E; apply Hn; now left).
      pose proof (step_comm s y x NE) as C.
      destruct (step_ok s y) as [sy Ey], (step_ok s x) as [sx Ex]. rewrite Ey, Ex in C |- *. cbn [bind] in *. now rewrite C.
    - rewrite IH1 by assumption. apply IH2. eapply Permutation_NoDup; [apply Permutation_map; exact P1|assumption].
  Qed.
End Assign.

Lemma dec_digits_nonempty f : forall m acc, f <> O \/ acc <> [] -> dec_digits f m acc <> [].
Proof.
  induction f as [|f IH]; intros m acc H; cbn [dec_digits]; [now destruct H|].
  destruct (_ =? 0); [discriminate|]. apply IH. now right.
Qed.

Lemma itoa_nonempty n : itoa n <> [].
Proof. apply dec_digits_nonempty. now left. Qed.

Lemma default_port_nonempty st p q : u_port st = q -> q <> [] -> default_port st p = q.
Proof. unfold default_port. intros -> H. destruct q; [contradiction|reflexivity]. Qed.

Inductive ufield := UProto (scheme : bytes) (port : option bytes) | UPort (n : N) | UDns (x : bytes) | UIp (x : bytes).

Definition uset (f : ufield) (st : urlst) : urlst :=
  let (s, q, dn, ip) := st in
  match f with
  | UProto s' p => mkurlst s' (match p with Some p => default_port st p | None => q end) dn ip
  | UPort n => mkurlst s (itoa n) dn ip
  | UDns x => mkurlst s q x ip
  | UIp x => mkurlst s q dn x
  end.

(* variable numbers are protocol.RvVar's: 0 DevOnly, 1 OwnerOnly, 2 IPAddress, 3 DevPort, 4 OwnerPort, 5 Dns, 6 SvCertHash,
   7 ClCertHash, 9 WifiSsid, 10 WifiPw, 11 Medium, 12 Protocol, 13 Delaysec, 14 Bypass, 15 ExtRV *)
Definition uvar (dev : bool) (f : ufield) : N :=
  match f with UProto _ _ => 12 | UPort _ => if dev then 3 else 4 | UDns _ => 5 | UIp _ => 2 end.

(* a port that was set wins over the protocol's default whichever comes first, because itoa is never empty *)
Lemma uset_comm dev f g st : uvar dev f <> uvar dev g -> uset f (uset g st) = uset g (uset f st).
Proof.
  destruct st, f as [? []| | |], g as [? []| | |]; intros H; try reflexivity; try (contradiction H; reflexivity);
    cbn [uset]; destruct (itoa n) eqn:E; try reflexivity; destruct (itoa_nonempty n E).
Qed.

(* one case per numeral that the goal compares x with (x is substituted), and the case that it is none of them *)
Ltac split_var x :=
  repeat match goal with
  | |- context [x =? ?k] => destruct (N.eqb_spec x k); [subst x|]
  end.

(* closes [id-case \/ exists f, var f = v /\ forall st, step .. = Ok (set f st)] with the field f: both sides compute to
   the same record once the state is taken apart *)
Ltac eff f := right; exists f; split; [reflexivity|intros []; reflexivity].

Lemma url_step_eff dev i :
  (forall st, url_step dev st i = Ok st) \/
  exists f, uvar dev f = rv_var i /\ forall st, url_step dev st i = Ok (uset f st).
Proof.
  destruct i as [v b]. unfold url_step. cbn [rv_var rv_val].
  split_var v; cbn [orb andb negb].
  - destruct (try_unm_ok (TInt KU8) b) as [[[p| | | | | | | |]|] ->]; cbn [bind]; try now left.
    destruct (p =? 1)%Z; [eff (UProto s_http (Some p80))|]. destruct (p =? 2)%Z; [eff (UProto s_https (Some p443))|].
    destruct (p =? 3)%Z; [eff (UProto s_tcp None)|]. destruct (p =? 4)%Z; [eff (UProto s_tls None)|].
    destruct (p =? 5)%Z; [eff (UProto s_coaptcp (Some p5683))|]. destruct (p =? 6)%Z; [eff (UProto s_coap (Some p5683))|now left].
  - destruct dev; cbn [orb andb negb]; [|now left].
    destruct (try_unm_ok (TInt KU16) b) as [[[p| | | | | | | |]|] ->]; cbn [bind]; try now left. eff (UPort (Z.to_N p)).
  - destruct dev; cbn [orb andb negb]; [now left|].
    destruct (try_unm_ok (TInt KU16) b) as [[[p| | | | | | | |]|] ->]; cbn [bind]; try now left. eff (UPort (Z.to_N p)).
  - destruct (try_unm_ok TText b) as [[[| | |x| | | | |]|] ->]; cbn [bind]; try now left. eff (UDns x).
  - destruct (try_unm_ok TBytes b) as [[[| |a| | | | | |]|] ->]; cbn [bind]; try now left.
    destruct (_ || _)%bool; [eff (UIp a)|now left].
  - now left.
Qed.

Lemma url_step_ok dev st i : exists st', url_step dev st i = Ok st'.
Proof. exact (step_ok _ _ _ (url_step_eff dev) st i). Qed.

Definition other_marker (dev : bool) : N := if dev then 1 else 0.

(* What one instruction does to the directive: it assigns one field (two for ExtRV), with a value taken from the
   instruction alone. *)
Inductive dfield :=
| FBypass | FEth (m : N) | FWlan (m : N) | FSsid (x : bytes) | FPass (x : bytes) | FExt (mech args : bytes)
| FDelay (z : Z) | FSvCert (h : Z * bytes) | FClCert (h : Z * bytes).

Definition dset (f : dfield) (d : rvdir) : rvdir :=
  let (u, bp, e, w, s, p, m, a, dl, sv, cl) := d in
  match f with
  | FBypass => mkdir u true e w s p m a dl sv cl
  | FEth x => mkdir u bp (Some x) w s p m a dl sv cl
  | FWlan x => mkdir u bp e (Some x) s p m a dl sv cl
  | FSsid x => mkdir u bp e w x p m a dl sv cl
  | FPass x => mkdir u bp e w s x m a dl sv cl
  | FExt x y => mkdir u bp e w s p x y dl sv cl
  | FDelay z => mkdir u bp e w s p m a z sv cl
  | FSvCert h => mkdir u bp e w s p m a dl (Some h) cl
  | FClCert h => mkdir u bp e w s p m a dl sv (Some h)
  end.

(* the instruction variable that assigns the field *)
Definition dvar (f : dfield) : N :=
  match f with
  | FBypass => 14 | FEth _ | FWlan _ => 11 | FSsid _ => 9 | FPass _ => 10 | FExt _ _ => 15
  | FDelay _ => 13 | FSvCert _ => 6 | FClCert _ => 7
  end.

Lemma dset_comm f g d : dvar f <> dvar g -> dset f (dset g d) = dset g (dset f d).
Proof. destruct d, f, g; intros H; try reflexivity; contradiction H; reflexivity. Qed.

(* the one deep pattern of dir_step, split once: its 181 constructor cases collapse to two *)
Lemma hash_view (r : option val) :
  (exists a x, r = Some (VList [VInt a; VBytes x])) \/
  forall A (f : Z -> bytes -> A) y, match r with Some (VList [VInt a; VBytes x]) => f a x | _ => y end = y.
Proof. destruct r as [[| | | |[|[] [|[] [|]]]| | | |]|]; try (now right).  eauto. Qed.

Lemma dir_step_marker dev d i : rv_var i = other_marker dev -> dir_step dev d i = Ok None.
Proof. unfold dir_step, other_marker. destruct dev; intros ->; reflexivity. Qed.

Lemma dir_step_eff dev i : rv_var i <> other_marker dev ->
  (forall d, dir_step dev d i = Ok (Some d)) \/
  exists f, dvar f = rv_var i /\ forall d, dir_step dev d i = Ok (Some (dset f d)).
Proof.
  destruct i as [v b]. unfold dir_step, other_marker. cbn [rv_var rv_val]. intros NM.
  split_var v.
  - destruct dev; [now left|contradiction].
  - destruct dev; [contradiction|now left].
  - eff FBypass.
  - destruct (try_unm_ok (TInt KU8) b) as [[[m| | | | | | | |]|] ->]; cbn [bind]; try now left. 
    destruct (_ <? 10); [eff (FEth (Z.to_N m))|]. destruct (_ <? 20); [eff (FWlan (Z.to_N m - 10))|].
    destruct (_ =? 20); [eff (FEth (Z.to_N m))|]. destruct (_ =? 21); [eff (FWlan (Z.to_N m))|now left].
  - destruct (try_unm_ok TText b) as [[[| | |x| | | | |]|] ->]; cbn [bind]; try now left. eff (FSsid x).
  - destruct (try_unm_ok TText b) as [[[| | |x| | | | |]|] ->]; cbn [bind]; try now left. eff (FPass x).
  - destruct (array_shift_ok b) as [[[|m0 mech] args] ->]; cbn [bind]; [now left|].
    destruct (try_unm_ok TText (m0 :: mech)) as [[[| | |x| | | | |]|] ->]; cbn [bind]; try now left. eff (FExt x args).
  - destruct (try_unm_ok (TInt KI64) b) as [[[x| | | | | | | |]|] ->]; cbn [bind]; try now left.
    eff (FDelay (wrap_i64 (x * 1000000000))).
  - destruct (try_unm_ok t_hash b) as [r ->]; cbn [bind].
    destruct (hash_view r) as [(a & x & ->)|H]; [eff (FSvCert (a, x))|left; intros; apply H].
  - destruct (try_unm_ok t_hash b) as [r ->]; cbn [bind].
    destruct (hash_view r) as [(a & x & ->)|H]; [eff (FClCert (a, x))|left; intros; apply H].
  - now left.
Qed.

(* the loop as a fold: a directive for the other role (None) absorbs everything after it *)
Definition dir_step' (dev : bool) (o : option rvdir) (i : rvi) : outcome (option rvdir) :=
  match o with None => Ok None | Some d => dir_step dev d i end.

Lemma fold_none dev l : foldM (dir_step' dev) l None = Ok None.
Proof. induction l; cbn [foldM dir_step' bind]; auto. Qed.

Lemma dir_loop_fold dev l : forall d, dir_loop dev l d = foldM (dir_step' dev) l (Some d).
Proof.
  induction l as [|i l IH]; intros d; cbn [dir_loop foldM dir_step']; [reflexivity|].
  destruct (dir_step dev d i) as [[d'|]| | |]; cbn [bind]; auto using fold_none.
Qed.

Definition dset' (f : option dfield) (o : option rvdir) : option rvdir :=
  match f with None => None | Some f => option_map (dset f) o end.
Definition dvar' (dev : bool) (f : option dfield) : N :=
  match f with None => other_marker dev | Some f => dvar f end.

Lemma dset'_comm dev f g o : dvar' dev f <> dvar' dev g -> dset' f (dset' g o) = dset' g (dset' f o).
Proof.
  destruct f, g, o; cbn; try reflexivity. intros H. f_equal. now apply dset_comm.
Qed.

Lemma dir_step'_eff dev i :
  (forall o, dir_step' dev o i = Ok o) \/
  exists f, dvar' dev f = rv_var i /\ forall o, dir_step' dev o i = Ok (dset' f o).
Proof.
  destruct (N.eq_dec (rv_var i) (other_marker dev)) as [M|M].
  - right. exists None. split; [now symmetry|]. intros [d|]; [now apply dir_step_marker|reflexivity].
  - destruct (dir_step_eff dev i M) as [E|(f & V & E)]; [left|right; exists (Some f); split; [exact V|]];
      intros [d|]; cbn; auto.
Qed.

Theorem interp_total ipstring l dev : exists d, interp ipstring l dev = Ok d.
Proof.
  unfold interp, parse_urls.
  destruct (foldM_ok _ l (url_step_ok dev) (mkurlst s_tls [] [] [])) as [st ->]. cbn [bind]. rewrite dir_loop_fold.
  destruct (foldM_ok _ l (step_ok _ _ _ (dir_step'_eff dev)) (Some (mkdir (assemble ipstring st) false None None [] [] [] [] 0 None None)))
    as [[d|] ->]; cbn [bind]; eexists; reflexivity.
Qed.

Theorem interp_other_role ipstring l dev :
  (exists i, In i l /\ rv_var i = other_marker dev) -> interp ipstring l dev = Ok zero_dir.
Proof.
  intros (j & Hin & Hv). unfold interp, parse_urls.
  destruct (foldM_ok _ l (url_step_ok dev) (mkurlst s_tls [] [] [])) as [st ->]. cbn [bind]. rewrite dir_loop_fold.
  enough (E : forall o, foldM (dir_step' dev) l o = Ok None) by now rewrite E.
  induction l as [|i l IH]; [contradiction|]. intros o. cbn [foldM]. destruct Hin as [->|Hin].
  - destruct o as [d|]; cbn [dir_step']; [rewrite (dir_step_marker _ _ _ Hv)|]; apply fold_none.
  - destruct (step_ok _ _ _ (dir_step'_eff dev) o i) as [o' ->]. now apply IH.
Qed.

Definition fails (t : ty) (b : bytes) : Prop := try_unm t b = Ok None.

(* what "malformed" means per variable (the Go target type each value must decode into) *)
Definition malformed (i : rvi) : Prop :=
  let v := rv_var i in let b := rv_val i in
  (v = 11 \/ v = 12) /\ fails (TInt KU8) b \/
  (v = 3 \/ v = 4) /\ fails (TInt KU16) b \/
  (v = 5 \/ v = 9 \/ v = 10) /\ fails TText b \/
  v = 2 /\ (fails TBytes b \/ exists a, try_unm TBytes b = Ok (Some (VBytes a)) /\ length a <> 4%nat /\ length a <> 16%nat) \/
  v = 13 /\ fails (TInt KI64) b \/
  (v = 6 \/ v = 7) /\ fails t_hash b \/
  v = 15 /\ (exists args, array_shift b = Ok ([], args) \/ exists m, array_shift b = Ok (m, args) /\ m <> [] /\ fails TText m).

Lemma url_step_malformed dev st i : malformed i -> url_step dev st i = Ok st.
Proof.
  unfold malformed, url_step, fails.
  intros [[[-> | ->] H] | [[[-> | ->] H] | [[[-> | [-> | ->]] H] | [[-> H] | [[-> H] | [[[-> | ->] H] | [-> H]]]]]]];
    cbn [N.eqb Pos.eqb orb andb]; try rewrite H; cbn [bind]; try reflexivity.
  - destruct dev; cbn [andb negb orb]; reflexivity.
  - destruct dev; cbn [andb negb orb]; reflexivity.
  - destruct H as [H | [a [H [L4 L16]]]]; rewrite H; cbn [bind]; [reflexivity|].
    destruct (Nat.eqb_spec (length a) 4); [contradiction|]. destruct (Nat.eqb_spec (length a) 16); [contradiction|]. reflexivity.
Qed.

Lemma dir_step_malformed dev d i : malformed i -> dir_step dev d i = Ok (Some d).
Proof.
  unfold malformed, dir_step, fails.
  intros [[[-> | ->] H] | [[[-> | ->] H] | [[[-> | [-> | ->]] H] | [[-> H] | [[-> H] | [[[-> | ->] H] | [-> H]]]]]]];
    cbn [N.eqb Pos.eqb orb andb]; try rewrite H; cbn [bind]; try reflexivity.
  destruct H as [args [H | [m [H [Hm Hf]]]]]; rewrite H; cbn [bind]; [reflexivity|].
  destruct m; [contradiction|]. rewrite Hf. reflexivity.
Qed.

Theorem interp_malformed_ignored ipstring l l' i dev :
  malformed i -> interp ipstring (l ++ i :: l') dev = interp ipstring (l ++ l') dev.
Proof.
  intros M. unfold interp, parse_urls.
  rewrite (foldM_skip (url_step dev)) by (intros; now apply url_step_malformed).
  destruct (foldM _ _ _) as [st| | |]; cbn [bind]; try reflexivity.
  rewrite !dir_loop_fold, (foldM_skip (dir_step' dev)); [reflexivity|].
  intros [d|]; [now apply dir_step_malformed|reflexivity].
Qed.

Theorem interp_perm ipstring l l' dev :
  Permutation l l' -> NoDup (map rv_var l) -> interp ipstring l dev = interp ipstring l' dev.
Proof.
  intros P ND. unfold interp, parse_urls.
  rewrite (foldM_perm _ _ _ (url_step_eff dev) (uset_comm dev) l l' P ND).
  destruct (foldM _ _ _) as [st| | |]; cbn [bind]; try reflexivity.
  now rewrite !dir_loop_fold, (foldM_perm _ _ _ (dir_step'_eff dev) (dset'_comm dev) l l' P ND).
Qed.
