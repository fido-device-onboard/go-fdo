(* Store/TokenFacts.v — the token check is total on every string, accepts what the store issued, and what it accepts
   decodes to an issued id with its MAC. *)
From FDO Require Import Store.Token.

Section Facts.
  Variable O_b64dec : bytes -> option bytes.
  Variable O_b64enc : bytes -> bytes.
  Variable O_mac : bytes -> bytes -> bytes.

  Notation session_id_with := (session_id_with O_b64dec O_mac).
  Notation session_id := (session_id O_b64dec O_mac).
  Notation new_token := (new_token O_b64enc O_mac).

  (* no token text, of any length, makes the check slice out of range *)
  Lemma session_id_with_total n secret token : exists r, session_id_with n secret token = Ok r.
  Proof.
    unfold Token.session_id_with, go_split. destruct (O_b64dec token) as [raw|]; [|eauto].
    destruct (Nat.ltb (length raw) n) eqn:L; [eauto|]. cbn [bind].
    destruct (bytes_eqb _ _); eauto.
  Qed.
  Theorem session_id_total secret token : exists r, session_id secret token = Ok r.
  Proof. apply session_id_with_total. Qed.

  (* acceptance pins the decoded token down to id || MAC(secret, id): a peer that presents an accepted token has produced
     the MAC of its first 16 bytes under the store's secret *)
  Lemma session_id_with_sound n secret token id :
    session_id_with n secret token = Ok (Some id) ->
    exists raw, O_b64dec token = Some raw /\ raw = id ++ O_mac secret id /\ length id = n.
  Proof.
    unfold Token.session_id_with, go_split. destruct (O_b64dec token) as [raw|]; [|discriminate].
    destruct (Nat.ltb (length raw) n) eqn:L; [discriminate|]. cbn [bind].
    destruct (bytes_eqb (skipn n raw) _) eqn:E; [|discriminate].
    intros H. injection H as <-. apply bytes_eqb_eq in E. exists raw. split; [reflexivity|].
    apply Nat.ltb_ge in L. split.
    - transitivity (firstn n raw ++ skipn n raw); [symmetry; apply firstn_skipn | f_equal; exact E].
    - apply firstn_length_le. exact L.
  Qed.
  Theorem session_id_sound secret token id :
    session_id secret token = Ok (Some id) ->
    exists raw, O_b64dec token = Some raw /\ raw = id ++ O_mac secret id /\ length id = session_id_size.
  Proof. apply session_id_with_sound. Qed.

  (* every issued token is accepted and names its own session (given that decoding inverts encoding) *)
  Theorem new_token_accepted secret id :
    (forall x, O_b64dec (O_b64enc x) = Some x) -> length id = session_id_size ->
    session_id secret (new_token secret id) = Ok (Some id).
  Proof.
    unfold Token.session_id. generalize session_id_size as n. intros n RT <-.
    unfold Token.session_id_with, Token.new_token, go_split. rewrite RT.
    rewrite (proj2 (Nat.ltb_ge _ _)) by (rewrite app_length; lia). cbn [bind].
    rewrite firstn_app, skipn_app, Nat.sub_diag, firstn_all, skipn_all, app_nil_r. cbn. now rewrite bytes_eqb_refl.
  Qed.

  (* two different sessions never share a token *)
  Theorem tokens_distinct secret id1 id2 :
    (forall x, O_b64dec (O_b64enc x) = Some x) -> length id1 = session_id_size -> length id2 = session_id_size ->
    new_token secret id1 = new_token secret id2 -> id1 = id2.
  Proof.
    intros RT L1 L2 E.
    pose proof (new_token_accepted secret id1 RT L1) as A1. rewrite E in A1.
    rewrite (new_token_accepted secret id2 RT L2) in A1. congruence.
  Qed.
End Facts.
