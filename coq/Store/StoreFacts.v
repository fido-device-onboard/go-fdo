(* Store/StoreFacts.v — what one token sees of the store depends only on what was done with that token. *)
From FDO Require Import Store.Store.
Local Open Scope Z_scope.

Lemma fget_fset_same f v l : fget f (fset f v l) = Some v.
Proof. induction l as [|[k x] r IH]; cbn; [now rewrite N.eqb_refl|]. destruct (k =? f)%N eqn:E; cbn; rewrite E; auto. Qed.
Lemma fget_fset_other f g v l : f <> g -> fget g (fset f v l) = fget g l.
Proof.
  intros NE%N.eqb_neq. induction l as [|[k x] r IH]; cbn; [now rewrite NE|].
  destruct (N.eqb_spec k f) as [->|]; cbn; [now rewrite NE|now destruct (k =? g)%N].
Qed.

Lemma bget_bdel_same {A} g (l : list (bytes * A)) : bget g (bdel g l) = None.
Proof. induction l as [|[k x] r IH]; cbn; auto. destruct (bytes_eqb k g) eqn:E; cbn; [auto|now rewrite E]. Qed.
Lemma bget_bdel_other {A} g h (l : list (bytes * A)) : g <> h -> bget h (bdel g l) = bget h l.
Proof.
   induction l as [|[k x] r IH]; cbn; auto.
  destruct (bytes_eqb k g) eqn:E; cbn; [|now destruct (bytes_eqb k h)].
  apply bytes_eqb_eq in E as ->. destruct (bytes_eqb g h) eqn:E; [now apply bytes_eqb_eq in E|exact IH].
Qed.
Lemma bget_bput_same {A} g (v : A) l : bget g (bput g v l) = Some v.
Proof. unfold bput; cbn. now rewrite bytes_eqb_refl. Qed.
Lemma bget_bput_other {A} g h (v : A) l : g <> h -> bget h (bput g v l) = bget h l.
Proof.
   unfold bput; cbn. destruct (bytes_eqb g h) eqn:E; [now apply bytes_eqb_eq in E|now apply bget_bdel_other].
Qed.

Lemma upd_length {A} (l : list A) : forall n x, length (upd l n x) = length l.
Proof. induction l as [|y r IH]; intros [|n] x; cbn; auto. Qed.
Lemma nth_upd_same {A} (l : list A) : forall n x, (n < length l)%nat -> nth_error (upd l n x) n = Some x.
Proof. induction l as [|y r IH]; intros [|n] x H; cbn in *; try lia; auto. apply IH. lia. Qed.
Lemma nth_upd_other {A} (l : list A) : forall n m x, n <> m -> nth_error (upd l n x) m = nth_error l m.
Proof. induction l as [|y r IH]; intros [|n] [|m] x H; cbn; auto; congruence. Qed.
Lemma nth_app_new {A} (l : list A) x : forall n,
  nth_error (l ++ [x]) n = if Nat.eqb (length l) n then Some x else nth_error l n.
Proof. induction l as [|y l IH]; intros [|n]; cbn; auto. now destruct n. Qed.

Lemma live_some st t n s : live st t = Some (n, s) -> t = TId n /\ nth_error (st_sess st) n = Some s /\ s_alive s = true /\ (n < length (st_sess st))%nat.
Proof.
  unfold live. destruct t as [|m]; [discriminate|].
  destruct (nth_error (st_sess st) m) as [x|] eqn:E; [|discriminate]. destruct (s_alive x) eqn:A; [|discriminate].
  intros [= <- <-]. repeat split; auto. apply nth_error_Some. congruence.
Qed.

(* the store seen through one token and one field: an abstract one-cell machine *)
Record cell := mkc { c_count : nat; c_alive : bool; c_val : option bytes }.

Definition proj (n : nat) (f : N) (st : store) : cell :=
  mkc (length (st_sess st))
      (match nth_error (st_sess st) n with Some s => s_alive s | None => false end)
      (match nth_error (st_sess st) n with Some s => if s_alive s then fget f (s_fields s) else None | None => None end).

(* only the ops that mention this token (and, for writes, this field) and the count of issued tokens matter *)
Definition astep (n : nat) (f : N) (c : cell) (o : op) : cell :=
  match o with
  | ONew _ => if Nat.eqb (c_count c) n then mkc (S (c_count c)) true None else mkc (S (c_count c)) (c_alive c) (c_val c)
  | OSet (TId m) g x =>
    if Nat.eqb m n && c_alive c && (g =? f)%N then
      (* field 0 keeps its first value, field 2 is write-once, the others are overwritten *)
      match c_val c with
      | Some _ => if (f =? 0)%N || (f =? 2)%N then c else mkc (c_count c) true (Some x)
      | None => mkc (c_count c) true (Some x)
      end
    else c
  | OInval (TId m) => if Nat.eqb m n && c_alive c then mkc (c_count c) false None else c
  | _ => c
  end.

(* what a read through token n returns: its value; not-found for an unset field and for an invalidated token (the
   token's MAC still verifies, the session row is gone); invalid for a token the store never issued *)
Definition aget (n : nat) (c : cell) : res :=
  if c_alive c then match c_val c with Some v => RVal v | None => RNotFound end
  else if Nat.ltb n (c_count c) then RNotFound else RInvalid.

(* what a write to field g leaves in field f of the same session (field 1 is stored only beside field 0: excluded) *)
Lemma set_field_view f g x l : f <> 1%N ->
  fget f (fst (set_field g x l)) =
  if (g =? f)%N then match fget f l with Some v => if (f =? 0)%N || (f =? 2)%N then Some v else Some x | None => Some x end
  else fget f l.
Proof.
  intros F1. unfold set_field.
  destruct (N.eqb_spec g f) as [->|NE]; [apply N.eqb_neq in F1; rewrite F1|];
    repeat match goal with |- context [if (?a =? ?k)%N then _ else _] => destruct (N.eqb_spec a k) as [->|] end;
    try match goal with |- context [match fget ?k l with _ => _ end] => destruct (fget k l) eqn:G end;
    cbn [fst orb]; rewrite ?G, ?fget_fset_same, ?fget_fset_other by congruence; try reflexivity.
Qed.

(* replacing the session of a live token m: only token m's cells see it *)
Lemma proj_live n f st m m' s s' v b : live st (TId m) = Some (m', s) ->
  proj n f (mkst (upd (st_sess st) m' s') v b) =
  if Nat.eqb m n && c_alive (proj n f st)
  then mkc (c_count (proj n f st)) (s_alive s') (if s_alive s' then fget f (s_fields s') else None) else proj n f st.
Proof.
  intros ([= <-] & N & A & LT)%live_some. unfold proj; cbn [st_sess c_alive c_count]. rewrite upd_length.
  destruct (Nat.eqb_spec m n) as [->|NE]; [now rewrite nth_upd_same, N, A|now rewrite nth_upd_other].
Qed.

Lemma proj_dead n f st m : live st (TId m) = None -> Nat.eqb m n && c_alive (proj n f st) = false.
Proof.
  destruct (Nat.eqb_spec m n) as [->|]; [|reflexivity]. unfold live, proj; cbn.
  destruct (nth_error (st_sess st) n) as [s|]; [destruct (s_alive s)|]; easy.
Qed.

(* isolation as a refinement: one step of the store, seen through (n, f), is one step of the cell *)
Theorem proj_step n f st o : f <> 1%N -> proj n f (fst (step st o)) = astep n f (proj n f st) o.
Proof.
  intros F1.
  destruct o as [p|[|m] g x|t g|[|m]|g v|g g' v|g|g|g b e|g now|]; cbn [step fst astep];
    repeat match goal with |- context [match bget ?g ?l with _ => _ end] => destruct (bget g l) end; try reflexivity.
  - (* ONew *)
    unfold proj; cbn [st_sess c_count c_alive c_val]. rewrite app_length, Nat.add_1_r, nth_app_new.
    destruct (Nat.eqb (length (st_sess st)) n); reflexivity.
  - (* OSet *)
    destruct (live st (TId m)) as [[m' s]|] eqn:L; cbn [fst]; [|now rewrite (proj_dead n f _ _ L)].
    rewrite (surjective_pairing (set_field _ _ _)). cbn [fst]. rewrite (proj_live _ _ _ _ _ _ _ _ _ L).
    destruct (Nat.eqb m n && _) eqn:E; [|reflexivity]. apply andb_true_iff in E as [->%Nat.eqb_eq _].
    cbn [s_alive s_fields andb]. rewrite set_field_view by exact F1.
    apply live_some in L as ([= <-] & N & A & _). unfold proj. rewrite N, A. cbn [c_val c_count].
    destruct (g =? f)%N; [destruct (fget f _); [destruct (_ || _)%bool|]|]; reflexivity.
  - (* OGet *)
    destruct (live st t) as [[? ?]|]; reflexivity.
  - (* OInval *)
    destruct (live st (TId m)) as [[m' s]|] eqn:L; cbn [fst]; [|now rewrite (proj_dead n f _ _ L)].
    now rewrite (proj_live _ _ _ _ _ _ _ _ _ L).
Qed.

(* a read through a token returns what the cell holds *)
Theorem get_is_cell n f st : snd (step st (OGet (TId n) f)) = aget n (proj n f st).
Proof.
  cbn [step]. unfold live, dead, proj, aget; cbn [c_alive c_val c_count].
  destruct (nth_error (st_sess st) n) as [s|] eqn:N; [destruct (s_alive s)|]; cbn [snd negb].
  all: destruct (Nat.ltb_spec n (length (st_sess st))) as [LT|GE]; try reflexivity.
  - apply nth_error_None in GE. congruence.
  - apply nth_error_None in N. lia.
Qed.

(* over whole histories, any interleaving with other tokens' operations, voucher and blob operations and restarts *)
Theorem proj_run n f ops : f <> 1%N -> forall st, proj n f (fst (run st ops)) = fold_left (astep n f) ops (proj n f st).
Proof.
  intros F1. induction ops as [|o r IH]; intros st; cbn [run fold_left]; [reflexivity|].
  rewrite <- (proj_step _ _ _ _ F1), <- IH. destruct (step st o) as [st1 x]; cbn [fst]. now destruct (run st1 r).
Qed.

(* operations that do not mention the token leave its cell alone (apart from counting issued tokens) *)
Definition mentions (n : nat) (o : op) : bool :=
  match o with OSet (TId m) _ _ | OInval (TId m) => Nat.eqb m n | _ => false end.
Theorem astep_frame n f c o : mentions n o = false -> (forall p, o <> ONew p) -> astep n f c o = c.
Proof.
  destruct o as [p|[|m] g x|t g|[|m]|g v|g g' v|g|g|g b e|g now|]; cbn; intros M NN; try reflexivity; [|now rewrite M..].
  now destruct (NN p).
Qed.
(* issuing further tokens never touches an existing one *)
Theorem astep_new_frame n f c p : (n < c_count c)%nat -> astep n f c (ONew p) = mkc (S (c_count c)) (c_alive c) (c_val c).
Proof. intros H. cbn. now rewrite (proj2 (Nat.eqb_neq _ _)) by lia. Qed.

(* read-your-writes (cell_set_get, first_write_stays) and death is final (cell_dead_stays) *)
Theorem cell_set_get n f c x : c_alive c = true -> (f <> 0%N /\ f <> 2%N \/ c_val c = None) ->
  aget n (astep n f c (OSet (TId n) f x)) = RVal x.
Proof.
  intros A H. unfold astep. rewrite Nat.eqb_refl, A, N.eqb_refl. cbn [andb].
  destruct (c_val c) eqn:V; [|reflexivity]. destruct H as [[F0%N.eqb_neq F2%N.eqb_neq]|H]; [|discriminate].
  now rewrite F0, F2.
Qed.
(* the two write-once fields: a second value written through a live token is not what is read back (device
   certificate chain: the call even reports success) — the store is not an overwrite store for them *)
Theorem first_write_stays n f c x y : c_alive c = true -> c_val c = Some y -> (f = 0%N \/ f = 2%N) ->
  aget n (astep n f c (OSet (TId n) f x)) = RVal y.
Proof.
  intros A V H. unfold astep. rewrite Nat.eqb_refl, A, V. cbn [andb].
  destruct H as [->| ->]; cbn [N.eqb Pos.eqb orb]; unfold aget; rewrite A, V; reflexivity.
Qed.
Theorem cell_dead_stays n f c o : (n < c_count c)%nat -> c_alive c = false -> c_alive (astep n f c o) = false.
Proof.
  intros LT D. destruct o as [p|[|m] g x|t g|[|m]|g v|g g' v|g|g|g b e|g now|]; cbn; rewrite ?D, ?andb_false_r; auto.
  now rewrite (proj2 (Nat.eqb_neq _ _)) by lia.
Qed.

(* tokens the store did not issue, and invalidated ones, grant nothing and change nothing *)
Theorem bad_token_nothing st t : live st t = None ->
  (forall f v, fst (step st (OSet t f v)) = st /\ forall x, snd (step st (OSet t f v)) <> RVal x) /\
  (forall f, fst (step st (OGet t f)) = st /\ forall x, snd (step st (OGet t f)) <> RVal x) /\
  fst (step st (OInval t)) = st.
Proof.
  intros L. cbn. rewrite L. cbn. repeat split; destruct (dead st t); try destruct (_ =? _)%N; discriminate.
Qed.
(* a token the store never issued (damaged, truncated, forged, foreign) is answered "invalid session" *)
Theorem never_issued_invalid st : forall f v,
  step st (OSet TBad f v) = (st, RInvalid) /\ step st (OGet TBad f) = (st, RInvalid) /\ step st (OInval TBad) = (st, RNotFound).
Proof. cbn. auto. Qed.
Theorem unissued_is_bad st n : (length (st_sess st) <= n)%nat -> live st (TId n) = None.
Proof. intros H. unfold live. now rewrite (proj2 (nth_error_None _ _) H). Qed.
Theorem invalidated_is_bad st t n s : live st t = Some (n, s) -> live (fst (step st (OInval t))) t = None.
Proof.
  intros L. cbn. rewrite L. cbn. apply live_some in L as [-> [_ [_ LT]]]. unfold live; cbn. now rewrite nth_upd_same.
Qed.

(* vouchers: after a replacement the new one is retrievable and the old one is gone; adding never overwrites *)
Theorem replace_voucher st g g' v st' :
  bget g (st_vouchers st) <> None -> step st (OReplV g g' v) = (st', ROk) ->
  snd (step st' (OGetV g')) = RVal v /\ (g <> g' -> snd (step st' (OGetV g)) = RNotFound) /\
  (forall h, h <> g -> h <> g' -> snd (step st' (OGetV h)) = snd (step st (OGetV h))).
Proof.
  intros EX. cbn [step]. destruct (bget g' (st_vouchers st)); [discriminate|].
  destruct (bget g (st_vouchers st)); [|contradiction]. intros [= <-]. cbn [step snd fst st_vouchers].
  rewrite bget_bput_same. repeat split; intros; rewrite bget_bput_other by congruence.
  - now rewrite bget_bdel_same.
  - now rewrite bget_bdel_other by congruence.
Qed.
(* replacing a voucher that is not stored changes nothing *)
Theorem replace_missing st g g' v : bget g (st_vouchers st) = None -> fst (step st (OReplV g g' v)) = st.
Proof. intros E. cbn [step]. destruct (bget g' (st_vouchers st)); [reflexivity|]. now rewrite E. Qed.
Theorem add_voucher st g v st' r : step st (OAddV g v) = (st', r) ->
  (r = ROk /\ snd (step st' (OGetV g)) = RVal v) \/ (r = RErr /\ st' = st).
Proof.
  cbn [step]. destruct (bget g (st_vouchers st)); intros [= <- <-]; [now right|left].
  cbn [step snd st_vouchers]. now rewrite bget_bput_same.
Qed.

(* rendezvous blobs: a blob is handed out only up to its expiry, and it is the last one registered for the GUID *)
Theorem blob_expiry st g now b : snd (step st (OGetBlob g now)) = RVal b ->
  exists e, bget g (st_blobs st) = Some (b, e) /\ now <= e * 1000.
Proof.
  cbn [step snd]. destruct (bget g (st_blobs st)) as [[b' e]|]; [|discriminate].
  destruct (Z.ltb_spec (e * 1000) now); [discriminate|]. intros [= ->]. now exists e.
Qed.
Theorem blob_set_get st g b e now : now <= e * 1000 -> snd (step (fst (step st (OSetBlob g b e))) (OGetBlob g now)) = RVal b.
Proof. intros H. cbn [step snd fst st_blobs]. rewrite bget_bput_same. now rewrite (proj2 (Z.ltb_ge _ _)). Qed.

(* closing and reopening the database, or building fresh server objects, changes nothing *)
Theorem restart_identity st : step st ORestart = (st, ROk).
Proof. reflexivity. Qed.
